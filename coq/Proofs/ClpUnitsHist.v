(* C02 over histories: pool units = sum of the providers' units, for every pool, in every state reached by user
   messages — by induction over the transaction list. *)
From Coq Require Import ZArith Lia Bool List.
From RecordUpdate Require Import RecordUpdate.
From Sif Require Import Base.Outcome Base.SdkMath Base.Store Base.Bank
  Model.ClpCalc Model.ClpTypes Model.ClpState Model.ClpMsgs Proofs.BankProofs Proofs.ClpInv Proofs.ClpUnits.
Import ListNotations.
Local Open Scope Z_scope.

Definition usum (s : clp_state) (a : Z) : Z := sumf lp_units (lps_for s a).

Lemma pool_units_set_pool_other s a p a' : a' <> a -> pool_units_of (set_pool s a p) a' = pool_units_of s a'.
Proof. intros H. unfold pool_units_of, set_pool; cbn. rewrite get_set_other by exact H. reflexivity. Qed.
Lemma pools_get_set_lp s a addr l a' : get a' (cs_pools (set_lp s a addr l)) = get a' (cs_pools s). Proof. reflexivity. Qed.

(* U for units: a pool's units are the sum of its providers' units; an asset without a pool has no provider records *)
Definition UInv (s : clp_state) : Prop :=
  forall a, match get a (cs_pools s) with
            | Some p => p_units p = usum s a
            | None => lps_for s a = []
            end.

Lemma UInv_frame s s' : (forall a, usum s' a = usum s a) -> (forall a, lps_for s' a = [] <-> lps_for s a = []) ->
  cs_pools s' = cs_pools s -> UInv s -> UInv s'.
Proof. intros Hu Hl Hp H a. specialize (H a). rewrite Hp. destruct (get a (cs_pools s)); [rewrite Hu; exact H|apply Hl; exact H]. Qed.

Lemma UInv_write s s1 a pl' b m' :
  UInv s -> cs_pools s1 = cs_pools s -> (forall a', lps_for s1 a' = if a' =? a then m' else lps_for s a') ->
  p_units pl' = sumf lp_units m' ->
  UInv (with_bank (set_pool s1 a pl') b).
Proof.
  intros HI Hp Hl Hu a'. specialize (HI a'). rewrite pools_with_bank, pools_set_pool, Hp, get_set.
  unfold usum in *. change (lps_for (with_bank (set_pool s1 a pl') b) a') with (lps_for s1 a'). rewrite Hl.
  destruct (a' =? a); [exact Hu|exact HI].
Qed.
Lemma UInv_same_lp_units s a sg l0 l' : UInv s -> find_lp s a sg = Some l0 -> lp_units l' = lp_units l0 -> UInv (put_lp s a sg l').
Proof.
  intros HI Hf Hu a'. specialize (HI a'). change (cs_pools (put_lp s a sg l')) with (cs_pools s).
  unfold usum, find_lp in *. rewrite lps_for_put. destruct (Z.eqb_spec a' a) as [->|]; [|exact HI].
  destruct (get a (cs_pools s)); [rewrite sumf_set, Hf; cbn [fopt]; lia|]. rewrite HI in Hf. discriminate.
Qed.
Lemma UInv_same_units s s' :
  cs_lps s' = cs_lps s ->
  (forall a, option_map p_units (get a (cs_pools s')) = option_map p_units (get a (cs_pools s))) ->
  UInv s -> UInv s'.
Proof.
  intros Hl Hp HI a. specialize (HI a). specialize (Hp a). unfold usum, lps_for in *. rewrite Hl.
  destruct (get a (cs_pools s')) as [p'|]; destruct (get a (cs_pools s)) as [p|]; cbn in Hp; try discriminate; [|exact HI].
  injection Hp as ->. exact HI.
Qed.

Lemma leg_units tr a z pm f m res m' a' :
  leg tr a z pm f m res m' -> option_map p_units (get a' m') = option_map p_units (get a' m).
Proof. intros (p & fee & sp & Hg & _ & ->). rewrite get_set. destruct (Z.eqb_spec a' a) as [->|]; [rewrite Hg|]; reflexivity. Qed.

Lemma lps_for_del_lps a ls : forall s a', lps_for s a = ls ->
  lps_for (del_lps a ls s) a' = if a' =? a then [] else lps_for s a'.
Proof.
  induction ls as [|[k l] rest IH]; intros s a' Hl; cbn [del_lps fold_left fst].
  - destruct (Z.eqb_spec a' a) as [->|]; [exact Hl|reflexivity].
  - fold (del_lps a rest (del_lp s a k)). rewrite IH, lps_for_del.
    + destruct (a' =? a); reflexivity.
    + rewrite lps_for_del, Z.eqb_refl, Hl. cbn [del]. rewrite Z.ltb_irrefl, Z.eqb_refl. reflexivity.
Qed.

Lemma UInv_decommissioned s s' a :
  wf (cs_pools s) -> UInv s -> cs_pools s' = del a (cs_pools s) -> cs_lps s' = cs_lps (del_lps a (lps_for s a) s) -> UInv s'.
Proof.
  intros Hwf HI Hp Hl a'. specialize (HI a').
  assert (E : lps_for s' a' = if a' =? a then [] else lps_for s a')
    by (rewrite <- (lps_for_del_lps a (lps_for s a) s a' eq_refl); unfold lps_for; rewrite Hl; reflexivity).
  unfold usum in *. rewrite Hp, E. destruct (Z.eqb_spec a' a) as [->|Hne].
  - rewrite wf_get_del_same by exact Hwf. reflexivity.
  - rewrite wf_get_del_other by assumption. exact HI.
Qed.

Lemma removed_UInv s sg a s' : UInv s -> removed s sg a s' -> UInv s'.
Proof.
  intros HI (pl & l0 & wn & we & lft & caller & b2 & -> & (_ & Hp & Hf) & _).
  pose proof (HI a) as Ha. rewrite Hp in Ha. unfold usum, find_lp in *.
  destruct (Z.eqb_spec lft 0) as [->|_].
  - apply (UInv_write s (del_lp s a sg) a _ b2 (del sg (lps_for s a)) HI eq_refl); [intros a'; apply lps_for_del|].
    rewrite sumf_del, Hf. cbn -[Z.add Z.sub]. lia.
  - apply (UInv_write s (put_lp s a sg _) a _ b2 (set sg (mkLp lft caller (cs_height s)) (lps_for s a)) HI eq_refl); [intros a'; apply lps_for_put|].
    rewrite sumf_set, Hf. cbn -[Z.add Z.sub]. lia.
Qed.

(* the one excluded case: an add to a pool with an empty side (finding F-14, refuted in ClpUnits) *)
Definition not_one_sided_add (s : clp_state) (m : clp_msg) : Prop :=
  match m with
  | MAddLiquidity _ a n e => forall p, get a (cs_pools s) = Some p -> symmetry_state (p_eb p + p_el p) e (p_nb p + p_nl p) n <> EmptyPool
  | _ => True
  end.

Lemma handle_UInv s m s' : wf (cs_pools s) -> UInv s -> not_one_sided_add s m -> handle s m = Ok s' -> UInv s'.
Proof.
  intros Hwf HI Hn H.
  destruct m as [sg a n e|sg a n e|sg a w asym|sg a u|sg sa ra amt mn|sg a u|sg a u|sg a|sg cs]; cbn [handle] in H.
  - destruct (create_pool_spec _ _ _ _ _ _ H) as (b2 & -> & _ & Hnone & _).
    pose proof (HI a) as Ha. rewrite Hnone in Ha.
    apply (UInv_write s (put_lp s a sg _) a _ b2 (set sg (mkLp n [] (cs_height s)) (lps_for s a)) HI eq_refl); [intros a'; apply lps_for_put|].
    rewrite sumf_set, Ha. cbn. lia.
  - destruct (add_liquidity_spec _ _ _ _ _ _ H) as (p & pu & lpu & st & sw & b2 & -> & _ & Hp & Hcalc & _).
    apply calculate_pool_units_total in Hcalc; [|exact (Hn p Hp)].
    pose proof (HI a) as Ha. rewrite Hp in Ha.
    apply (UInv_write s (put_lp s a sg _) a _ b2 (set sg (lp_added s a sg lpu) (lps_for s a)) HI eq_refl); [intros a'; apply lps_for_put|].
    rewrite sumf_set. unfold lp_added, usum, find_lp in *. cbn -[Z.add Z.sub]. lia.
  - exact (removed_UInv _ _ _ _ HI (remove_liquidity_spec _ _ _ _ _ _ H)).
  - exact (removed_UInv _ _ _ _ HI (remove_liquidity_units_spec _ _ _ _ _ H)).
  - bind_inv H as [s1 emit] Hswap. injection H as <-.
    destruct (swap_inv _ _ _ _ _ _ _ _ Hswap) as (b1 & b2 & mid & pools1 & (_ & Hlps & _) & (Hleg1 & Hleg2) & _).
    apply (UInv_same_units s _ Hlps); [|exact HI]. intros a'. rewrite (leg_units _ _ _ _ _ _ _ _ a' Hleg2).
    destruct (negb (sa =? ROWAN) && negb (ra =? ROWAN)); [exact (leg_units _ _ _ _ _ _ _ _ a' Hleg1)|].
    destruct Hleg1 as [_ ->]. reflexivity.
  - destruct (unlock_spec _ _ _ _ _ H) as (l0 & l' & -> & Hf & Hu & _). exact (UInv_same_lp_units _ _ _ _ _ HI Hf Hu).
  - destruct (cancel_unlock_spec _ _ _ _ _ H) as (l0 & l' & -> & Hf & Hu & _). exact (UInv_same_lp_units _ _ _ _ _ HI Hf Hu).
  - destruct (decommission_spec _ _ _ _ H) as (pl & b' & -> & _).
    apply (UInv_decommissioned s _ a Hwf HI); reflexivity.
  - destruct (add_to_bucket_spec _ _ _ _ H) as (b' & _ & ->). apply (UInv_same_units s); [reflexivity|reflexivity|exact HI].
Qed.

Lemma deliver_UInv s fee m : wf (cs_pools s) -> UInv s -> not_one_sided_add s m -> UInv (fst (deliver s fee m)).
Proof.
  intros Hwf HI Hn. apply deliver_cases; cbv zeta; [exact HI|]. intros s' H. exact (handle_UInv (with_bank s _) m s' Hwf HI Hn H).
Qed.

(* side conditions along a history: pool store sorted, no add into a one-sided pool *)
Fixpoint units_run (s : clp_state) (txs : list (Z * clp_msg)) : Prop :=
  match txs with
  | [] => True
  | (fee, m) :: rest => wf (cs_pools s) /\ not_one_sided_add s m /\ units_run (fst (deliver s fee m)) rest
  end.

Theorem run_txs_UInv : forall txs s, units_run s txs -> UInv s -> UInv (run_txs s txs).
Proof.
  induction txs as [|[fee m] rest IH]; intros s Hr HI; cbn [run_txs]; [exact HI|].
  destruct Hr as (Hwf & Hn & Hrest). apply IH; [exact Hrest|]. apply deliver_UInv; assumption.
Qed.
