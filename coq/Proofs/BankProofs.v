(* What the bank operations of Base/Bank.v do to every balance and to the supply. *)
From Coq Require Import ZArith Lia Bool List.
From Sif Require Import Base.Outcome Base.Store Base.Bank.
Import ListNotations.
Local Open Scope Z_scope.

Lemma getz_set_same k v (m : store Z) : getz k (set k v m) = v.
Proof. unfold getz. rewrite get_set_same. reflexivity. Qed.
Lemma getz_set_other k k2 v (m : store Z) : k2 <> k -> getz k2 (set k v m) = getz k2 m.
Proof. intros. unfold getz. rewrite get_set_other; auto. Qed.

Lemma bal_set_bal b a d v a' d' :
  bal (set_bal b a d v) a' d' = if (a' =? a) && (d' =? d) then v else bal b a' d'.
Proof.
  unfold bal, set_bal, acct_of; cbn [balances].
  destruct (Z.eqb_spec a' a) as [->|Ha]; cbn [andb].
  - rewrite get_set_same. destruct (Z.eqb_spec d' d) as [->|Hd].
    + apply getz_set_same.
    + rewrite getz_set_other; auto.
  - rewrite get_set_other; auto.
Qed.

Lemma bal_credit b a d x a' d' :
  bal (credit b a d x) a' d' = bal b a' d' + (if (a' =? a) && (d' =? d) then x else 0).
Proof.
  unfold credit. rewrite bal_set_bal.
  destruct (Z.eqb_spec a' a) as [->|]; destruct (Z.eqb_spec d' d) as [->|]; cbn [andb]; lia.
Qed.

Lemma sup_credit b a d x d' : sup (credit b a d x) d' = sup b d'.
Proof. reflexivity. Qed.

Lemma send_effect b from to d x b' :
  send b from to d x = Some b' ->
  0 <= x /\
  (forall a' d', bal b' a' d' = bal b a' d'
     - (if (a' =? from) && (d' =? d) then x else 0)
     + (if (a' =? to) && (d' =? d) then x else 0)) /\
  (forall d', sup b' d' = sup b d').
Proof.
  unfold send. destruct (Z.ltb_spec x 0); [discriminate|].
  destruct (Z.eqb_spec x 0) as [->|].
  - intros [= <-]. repeat split; try lia. intros a' d'.
    destruct ((a' =? from) && (d' =? d)); destruct ((a' =? to) && (d' =? d)); lia.
  - destruct (Z.ltb_spec (bal b from d) x); [discriminate|].
    intros [= <-]. repeat split; try lia.
    intros a' d'. rewrite !bal_credit.
    destruct ((a' =? from) && (d' =? d)); destruct ((a' =? to) && (d' =? d)); lia.
Qed.

Lemma send_some_funds b from to d x b' :
  send b from to d x = Some b' -> x = 0 \/ x <= bal b from d.
Proof.
  unfold send. destruct (Z.ltb_spec x 0); [discriminate|].
  destruct (Z.eqb_spec x 0); [auto|].
  destruct (Z.ltb_spec (bal b from d) x); [discriminate|]. auto.
Qed.

Lemma bal_mk b0 sp a d : bal (mkBank (balances b0) sp) a d = bal b0 a d.
Proof. reflexivity. Qed.

Lemma mint_effect b a d x :
  (forall a' d', bal (mint b a d x) a' d' = bal b a' d' + (if (a' =? a) && (d' =? d) then Z.max 0 x else 0)) /\
  (forall d', sup (mint b a d x) d' = sup b d' + (if d' =? d then Z.max 0 x else 0)).
Proof.
  unfold mint. destruct (Z.leb_spec x 0).
  - split; intros; [destruct (_ && _)|destruct (_ =? _)]; lia.
  - split.
    + intros a' d'. rewrite bal_mk, bal_set_bal. destruct (Z.eqb_spec a' a) as [->|]; destruct (Z.eqb_spec d' d) as [->|]; cbn [andb]; lia.
    + intros d'. unfold sup at 1. cbn [supply].
      destruct (Z.eqb_spec d' d) as [->|]; [rewrite getz_set_same|rewrite getz_set_other; auto]; unfold sup; lia.
Qed.

Lemma burn_effect b a d x b' :
  burn b a d x = Some b' ->
  (forall a' d', bal b' a' d' = bal b a' d' - (if (a' =? a) && (d' =? d) then Z.max 0 x else 0)) /\
  (forall d', sup b' d' = sup b d' - (if d' =? d then Z.max 0 x else 0)).
Proof.
  unfold burn. destruct (Z.leb_spec x 0).
  - intros [= <-]. split; intros; [destruct (_ && _)|destruct (_ =? _)]; lia.
  - destruct (Z.ltb_spec (bal b a d) x); [discriminate|]. intros Heq.
    assert (Hb : b' = mkBank (balances (set_bal b a d (bal b a d - x))) (set d (sup b d - x) (supply b))) by congruence.
    clear Heq. subst b'. split.
    + intros a' d'. rewrite bal_mk, bal_set_bal. destruct (Z.eqb_spec a' a) as [->|]; destruct (Z.eqb_spec d' d) as [->|]; cbn [andb]; lia.
    + intros d'. unfold sup at 1. cbn [supply].
      destruct (Z.eqb_spec d' d) as [->|]; [rewrite getz_set_same|rewrite getz_set_other; auto]; unfold sup; lia.
Qed.

Lemma burn_some b a d x : x <= bal b a d -> exists b', burn b a d x = Some b'.
Proof. unfold burn. intros H. destruct (x <=? 0); [eauto|]. destruct (Z.ltb_spec (bal b a d) x); [lia|eauto]. Qed.
