(* A relation on contexts respected by every step of a computation in the context monad of Model/Margin.v. The
   combinators are treated once, for any reflexive and transitive relation R: resp R f says that f takes c to an
   R-related c' whatever its outcome (Ok, an error, a panic: the context is returned in every case). An invariant P is
   the relation fun c c' => P c -> P c'. *)
From Coq Require Import ZArith List.
From RecordUpdate Require Import RecordUpdate.
From Sif Require Import Base.Outcome Base.Store Base.Bank Model.Margin.
Local Open Scope Z_scope.
Local Open Scope pm_scope.

Section Resp.
Variable R : mctx -> mctx -> Prop.
Hypothesis R_refl : forall c, R c c.
Hypothesis R_trans : forall c1 c2 c3, R c1 c2 -> R c2 c3 -> R c1 c3.

Definition resp {A} (f : PM A) : Prop := forall c c' o, f c = (c', o) -> R c c'.

Lemma resp_lift {A} (x : Outcome A) : resp (lift x).
Proof. intros c c' o H. injection H as <- _. apply R_refl. Qed.
Lemma resp_ret {A} (x : A) : resp (ret x).
Proof. exact (resp_lift (Ok x)). Qed.
Lemma resp_getc : resp getc.
Proof. intros c c' o H. injection H as <- _. apply R_refl. Qed.
Lemma resp_modc f : (forall c, R c (f c)) -> resp (modc f).
Proof. intros Hf c c' o H. injection H as <- _. apply Hf. Qed.
Lemma resp_bind {A B} (m : PM A) (f : A -> PM B) : resp m -> (forall a, resp (f a)) -> resp (bindP m f).
Proof.
  intros Hm Hf c c' o H. unfold bindP in H. destruct (m c) as [c1 o1] eqn:E. specialize (Hm _ _ _ E).
  destruct o1 as [a|e|]; [|injection H as <- _; exact Hm..].
  eapply R_trans; [exact Hm|exact (Hf a _ _ _ H)].
Qed.
Lemma resp_if {A} (b : bool) (f g : PM A) : resp f -> resp g -> resp (if b then f else g).
Proof. destruct b; auto. Qed.

(* the primitives that read before they write: R is asked of the write only *)
Lemma resp_upd_pool f : (forall c p, f (c_pool c) = Ok p -> R c (c <| c_pool := p |>)) -> resp (upd_pool f).
Proof.
  intros Hf c c' o H. unfold upd_pool, bindP, getc, lift, modc in H.
  destruct (f (c_pool c)) eqn:E; injection H as <- _; [exact (Hf _ _ E)|apply R_refl..].
Qed.
Lemma resp_upd_mtp f : (forall c m, f (c_mtp c) = Ok m -> R c (c <| c_mtp := m |>)) -> resp (upd_mtp f).
Proof.
  intros Hf c c' o H. unfold upd_mtp, bindP, getc, lift, modc in H.
  destruct (f (c_mtp c)) eqn:E; injection H as <- _; [exact (Hf _ _ E)|apply R_refl..].
Qed.
Lemma resp_bank_send from to d x :
  (forall c b, send (ms_bank (c_s c)) from to d x = Some b -> R c (c <| c_s := (c_s c) <| ms_bank := b |> |>)) ->
  resp (bank_send from to d x).
Proof.
  intros Hf c c' o H. unfold bank_send, bindP, getc, modc, failM, lift in H.
  destruct (send _ _ _ _ _) eqn:E; injection H as <- _; [exact (Hf _ _ E)|apply R_refl].
Qed.
Lemma resp_destroy_mtp :
  (forall c, find_mtp (c_s c) (c_addr c) (c_id c) <> None ->
     R c (c <| c_s := (c_s c) <| ms_mtps := set (c_addr c) (del (c_id c) (mtps_of (c_s c) (c_addr c))) (ms_mtps (c_s c)) |>
                             <| ms_open := if ms_open (c_s c) =? 0 then 18446744073709551615 else ms_open (c_s c) - 1 |> |>)) ->
  resp destroy_mtp.
Proof.
  intros Hf c c' o H. unfold destroy_mtp, bindP, getc, modc, failM, lift in H.
  destruct (find_mtp _ _ _) eqn:E; injection H as <- _; [apply Hf; rewrite E; discriminate|apply R_refl].
Qed.

(* HandleInterestPayment turns an error of the incremental payment into Ok and keeps the context *)
Lemma resp_handle i :
  resp (incremental_interest_payment i) -> resp (upd_mtp (fun m => Ok (m <| m_iunpaid := i |>))) ->
  resp (handle_interest_payment i).
Proof.
  intros Hi Hu. unfold handle_interest_payment. apply resp_bind; [apply resp_getc|]. intros c0.
  destruct (mp_incr _); [|apply resp_bind; [exact Hu|intros _; apply resp_ret]].
  intros c c' o H. destruct (incremental_interest_payment i c) as [c1 o1] eqn:E. specialize (Hi _ _ _ E).
  destruct o1; injection H as <- _; exact Hi.
Qed.

(* the begin blocker's step keeps the interest part if that completes, the liquidation if that succeeds, else nothing *)
Lemma resp_process_mtp : resp process_interest -> resp (force_close_long false true) -> resp process_mtp.
Proof.
  intros HA HF c c' o H. unfold process_mtp in H.
  destruct (process_interest c) as [cA oA] eqn:EA. specialize (HA _ _ _ EA).
  destruct oA as [u|e|]; [|injection H as <- _; apply R_refl..].
  destruct (force_close_long false true cA) as [cF oF] eqn:EF. specialize (HF _ _ _ EF).
  destruct oF as [r|e|]; injection H as <- _; [eapply R_trans; eassumption|exact HA|apply R_refl].
Qed.
End Resp.
