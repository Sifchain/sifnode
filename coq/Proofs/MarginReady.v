(* C13 / C01: what the begin-blocker theorems ask of the state at the start of a block (MReady) is kept by MsgOpen, MsgClose
   and MsgAdminClose, together with the sums invariant and the module account's gap; with C13_begin_block the premise becomes
   one on the state before the first of any sequence of blocks and margin transactions. *)
From Coq Require Import ZArith Lia Bool List.
From RecordUpdate Require Import RecordUpdate.
From Sif Require Import Base.Outcome Base.SdkMath Base.Store Base.Bank Model.Margin Proofs.BankProofs Proofs.ClpInv Proofs.MarginResp Proofs.MarginProofs Proofs.MarginLoop.
Import ListNotations.
Local Open Scope Z_scope.

Lemma assemble_ready c c' :
  MReady (c_s c) -> get (c_asset c) (ms_pools (c_s c)) = Some (c_pool c) ->
  Good c' -> stored_shape (c_s c') -> ms_params (c_s c') = ms_params (c_s c) -> PF c c' ->
  get (c_asset c) (ms_pools (c_s c')) = Some (c_pool c') -> gap_eq c c' ->
  MReady (c_s c') /\ same_gap (c_s c) (c_s c').
Proof.
  intros HM Hg (_ & Hw' & (_ & Hnb' & Heb' & Hn')) Hsh' Hpar (_ & Hpf) Hst (G1 & G2 & G3 & G4).
  unfold Gn, Ge in G1, G2. rewrite G3 in G2.
  apply (ready_assemble (c_s c) (c_s c') (c_asset c) (c_pool c) (c_pool c') HM Hg Hw' Hn' Hsh' Hpar); [|exact Hnb'|exact Heb'|unfold fnat; lia|lia|exact G4].
  destruct Hpf as [E|(p' & E)]; rewrite E in Hst |- *.
  - symmetry. apply set_get_same. exact Hst.
  - rewrite get_set_same in Hst. injection Hst as ->. reflexivity.
Qed.

Section Closing.
  Variables (A : Type) (f : PM A).
  Hypothesis Sf : steps f.

  Lemma closing_ready s pool m addr id c' (r : A) :
    let asset := pool_asset_of m in
    let c := mkCtx s pool m asset addr id in
    MReady s -> find_mtp s addr id = Some m -> get asset (ms_pools s) = Some pool ->
    f c = (c', Ok r) ->
    get asset (ms_pools (c_s c')) = Some (c_pool c') -> gap_eq c c' ->
    MReady (c_s c') /\ same_gap s (c_s c').
  Proof.
    intros asset c HM Hf Hg H Hst HG. pose proof HM as (Hw & Hn & Hsh & Hpct & Hfm & Hwp & Hpools & Hsum).
    destruct (Hsh _ _ _ Hf) as (Hid & Haddr & Hshape).
    destruct (Hpools _ _ Hg) as (Ha & Hnb & Heb & Hbe).
    assert (G0 : Good c) by (split; [exact Hid|]; split; [exact Hw|]; split; [exact (Hn _ _ _ Hf)|]; split; [exact Hnb|]; split; [exact Heb|exact Hn]).
    assert (S0 : SH c) by (split; [exact Haddr|]; split; [exact Hid|]; split; [exact Hshape|]; split; [exact Hw|exact Hsh]).
    destruct (Sf _ _ _ H) as ((_ & _ & Hpar & _ & _) & HP & HG' & HS').
    destruct (HS' S0) as (_ & _ & _ & _ & Hsh').
    exact (assemble_ready c c' HM Hg (HG' G0) Hsh' Hpar HP Hst HG).
  Qed.
End Closing.

Lemma position_ok_of_ready s addr id m pool :
  SumInv s -> MReady s -> find_mtp s addr id = Some m -> get (pool_asset_of m) (ms_pools s) = Some pool -> position_ok s addr id m.
Proof.
  intros HS HM Hf Hg. pose proof (ready_native_bound s _ pool HS HM Hg) as Bn.
  destruct HS as (HP & _). destruct HM as (Hw & Hn & Hsh & _ & _ & Hwp & Hpools & Hsum). destruct (Hsh _ _ _ Hf) as (Hid & _ & Hshape).
  destruct (Hpools _ _ Hg) as (Ha & Hnb & Heb & Hbe).
  split; [exact Hshape|]. split; [exact Hid|].
  apply (custody_covered (pool_asset_of m) s pool addr id m); try assumption.
  exact (HP _ _ Hg Ha).
Qed.

Theorem close_ready s signer id c' r :
  SumInv s -> MReady s -> close_msg s signer id = (c', Ok r) ->
  SumInv (c_s c') /\ MReady (c_s c') /\ same_gap s (c_s c').
Proof.
  intros HS HM H. pose proof HM as (_ & _ & Hsh & Hpct & Hfm & _).
  destruct (close_msg_spec _ _ _ _ _ HS Hpct (fun m pool => position_ok_of_ready s signer id m pool HS HM) H)
    as (pool & m & Hf & Hg & Hc & HS' & Hst & HG).
  split; [exact HS'|].
  exact (closing_ready _ close_long steps_close_long s pool m signer id c' r HM Hf Hg Hc Hst (HG Hfm (proj1 (proj2 (Hsh _ _ _ Hf))))).
Qed.

Theorem admin_close_ready s adm addr id tf c' r :
  SumInv s -> MReady s -> admin_close_msg s adm addr id tf = (c', Ok r) ->
  adm = true /\ SumInv (c_s c') /\ MReady (c_s c') /\ same_gap s (c_s c').
Proof.
  intros HS HM H. pose proof HM as (_ & _ & Hsh & Hpct & Hfm & _).
  destruct (admin_close_msg_spec _ _ _ _ _ _ _ HS Hpct (fun m pool => position_ok_of_ready s addr id m pool HS HM) H)
    as (-> & pool & m & Hf & Hg & Hc & HS' & Hst & HG).
  split; [reflexivity|]. split; [exact HS'|].
  exact (closing_ready _ (force_close_long true tf) (steps_force_close true tf) s pool m addr id c' r HM Hf Hg Hc Hst
           (HG Hfm (proj1 (proj2 (Hsh _ _ _ Hf))))).
Qed.

Lemma frames_take_in_custody : frames take_in_custody. Proof. apply steps_frames, steps_take_in_custody. Qed.
Lemma kg_take_in_custody : keepsG take_in_custody. Proof. apply steps_kg, steps_take_in_custody. Qed.
Lemma pf_take_in_custody : pframes take_in_custody. Proof. apply steps_pf, steps_take_in_custody. Qed.
Lemma sh_take_in_custody : keepsSH take_in_custody. Proof. apply steps_sh, steps_take_in_custody. Qed.

(* Borrow: up to the point where the new position has its id (the steps before it touch no stored position) *)
Lemma borrow_fn_good coll_amt cust_amt eta c c' u :
  borrow_fn coll_amt cust_amt eta c = (c', Ok u) ->
  c_id c = 0 -> 0 <= ms_count (c_s c) -> mtps_wf (c_s c) -> CN c -> stored_shape (c_s c) ->
  c_addr c <> CLP_MODULE -> on_pool (c_asset c) (c_mtp c) ->
  Good c' /\ SH c' /\ PF c c' /\ ms_params (c_s c') = ms_params (c_s c).
Proof.
  intros H Hid Hcnt Hw (Hc1 & Hc2 & Hc3 & Hc4) Hsh Haddr Hon.
  destruct (borrow_fn_inv _ _ _ _ _ _ H Hid) as (M & b & p & A1 & A2 & _ & HMnn & _ & Hp & ->). cbv zeta in Hp.
  set (id' := ms_count (c_s c) + 1) in *. assert (Hid' : id' <> 0) by (unfold id'; lia).
  set (S0 := c_s c <| ms_bank := b |> <| ms_pools := set (c_asset c) p (ms_pools (c_s c)) |> <| ms_count := id' |> <| ms_open := ms_open (c_s c) + 1 |>).
  assert (Hp7nn : 0 <= q_nb p /\ 0 <= q_eb p) by (destruct (_ =? ROWAN); destruct Hp as (-> & Hp); cbn in *; split; lia).
  assert (HMshape : shape M).
  { apply (on_pool_shape (c_asset c)). unfold on_pool in *. rewrite A1, A2. exact Hon. }
  assert (Hw' : mtps_wf (put_mtp S0 (c_addr c) id' M)).
  { eapply mtps_wf_set; [exact Hw|apply wf_set, (mtps_of_wf (c_s c) (c_addr c) Hw)|reflexivity]. }
  split; [|split; [|split; [split; [reflexivity|right; exists p; reflexivity]|reflexivity]]].
  - split; [exact Hid'|]. split; [exact Hw'|]. split; [exact HMnn|]. split; [exact (proj1 Hp7nn)|]. split; [exact (proj2 Hp7nn)|].
    apply stored_put; [exact (stored_same _ (c_s c) S0 eq_refl Hc4)|exact HMnn].
  - split; [exact Haddr|]. split; [exact Hid'|]. split; [exact HMshape|]. split; [exact Hw'|].
    apply stored_put; [exact (stored_same _ (c_s c) S0 eq_refl Hsh)|]. split; [exact Hid'|]. split; [exact Haddr|exact HMshape].
Qed.

Theorem open_ready s hl signer coll borrow amt lev c' u :
  SumInv s -> MReady s -> signer <> CLP_MODULE -> 0 <= ms_count s -> find_mtp s signer (ms_count s + 1) = None ->
  open_msg s hl signer coll borrow amt lev = (c', Ok u) ->
  SumInv (c_s c') /\ MReady (c_s c') /\ same_gap s (c_s c').
Proof.
  intros HS HM Hsg Hcnt Hfn H. pose proof HM as (Hw & Hn & Hsh & Hpct & Hfm & Hwp & Hpools & Hsum).
  destruct (open_preserves s hl signer coll borrow amt lev c' u HS Hfn H) as (HS' & _ & _ & _ & _ & _ & _ & _ & Hmem).
  destruct (open_gap s hl signer coll borrow amt lev c' u Hsg H) as (pool & Hg & HG).
  split; [exact HS'|].
  destruct (open_msg_inv _ _ _ _ _ _ _ _ _ H) as (pool' & cust & c7 & c8 & lr & Hg' & Hon & E7 & E8 & E9 & _).
  rewrite Hg in Hg'. injection Hg' as <-.
  set (a := if coll =? ROWAN then borrow else coll) in *. set (lv := Z.min lev (mp_lev_max (ms_params s))) in *.
  set (c1 := mkCtx s pool (new_mtp coll borrow lv) a signer 0) in *.
  destruct (Hpools _ _ Hg) as (Ha & Hnb & Heb & Hbe).
  assert (CN1 : CN c1) by (unfold CN, c1, new_mtp; cbn; split; [lia|]; split; [exact Hnb|]; split; [exact Heb|exact Hn]).
  destruct (borrow_fn_good _ _ _ _ _ _ E7 eq_refl Hcnt Hw CN1 Hsh Hsg Hon) as (G7 & S7 & P7 & Par7).
  (* the rest: store the pool, move the custody - on a position that has its id *)
  destruct (Step_trans _ _ _ (steps_set_pool _ _ _ E8) (steps_take_in_custody _ _ _ E9))
    as ((_ & _ & Par' & _ & _) & Pf & Kg & Sh).
  pose proof (Kg G7) as G'. destruct (Sh S7) as (_ & _ & _ & _ & Hsh').
  assert (PF' : PF c1 c') by (eapply PF_trans; [exact P7|exact Pf]).
  assert (Hpar : ms_params (c_s c') = ms_params s) by (rewrite Par', Par7; reflexivity).
  exact (assemble_ready c1 c' HM Hg G' Hsh' Hpar PF' Hmem HG).
Qed.

(* the fee a delivered transaction pays first does not touch the module account *)
Lemma fee_debit_ready s signer fee :
  signer <> CLP_MODULE -> SumInv s -> MReady s ->
  let s0 := s <| ms_bank := credit (ms_bank s) signer ROWAN (- fee) |> in
  SumInv s0 /\ MReady s0 /\ same_gap s s0.
Proof.
  intros Hsg HS (Hw & Hn & Hsh & Hpct & Hfm & Hwp & Hpools & Hsum) s0.
  assert (Hb : forall d, bal (ms_bank s0) CLP_MODULE d = bal (ms_bank s) CLP_MODULE d).
  { intros d. unfold s0. cbn. rewrite bal_credit. destruct (Z.eqb_spec CLP_MODULE signer) as [E|_]; [symmetry in E; contradiction|]. cbn [andb]. lia. }
  split; [exact HS|]. split.
  - split; [exact Hw|]. split; [exact Hn|]. split; [exact Hsh|]. split; [exact Hpct|]. split; [exact Hfm|]. split; [exact Hwp|]. split.
    + intros a p Hg. destruct (Hpools a p Hg) as (Q1 & Q2 & Q3 & Q4). rewrite Hb. auto.
    + rewrite Hb. exact Hsum.
  - split; [unfold gapN; rewrite Hb; reflexivity|]. intros a _. unfold gapE. rewrite Hb. reflexivity.
Qed.

Inductive mstep :=
| SMsg (fee : Z) (health_low : bool) (m : margin_msg)     (* a delivered margin transaction (the pool-health gate bit of Open is an input) *)
| SBlock (rates : list (Z * Z * Z)).                       (* the next block's begin blocker (the new interest rates are inputs) *)

Definition signer_of_margin (m : margin_msg) : Z :=
  match m with MOpen sg _ _ _ _ => sg | MClose sg _ => sg | MAdminClose _ sg _ _ _ => sg end.

(* None: the begin blocker itself fails (a panic there halts the chain: property C10) *)
Definition mstep_apply (s : mstate) (e : mstep) : option mstate :=
  match e with
  | SMsg fee hl m => Some (fst (deliver_margin s fee hl m))
  | SBlock rates =>
    let s1 := s <| ms_height := ms_height s + 1 |> in
    match begin_block_margin s1 rates with Ok (s', _) => Some s' | _ => None end
  end.
Fixpoint mrun (s : mstate) (es : list mstep) : option mstate :=
  match es with
  | [] => Some s
  | e :: rest => match mstep_apply s e with Some s1 => mrun s1 rest | None => None end
  end.

(* what is asked along the run: nobody signs as the module account; when a position is opened the id counter is
   non-negative and the next id is free (kept by the chain: ids are handed out by the counter; evaluated on observed
   states, not proved here) *)
Definition mstep_ok (s : mstate) (e : mstep) : Prop :=
  match e with
  | SMsg fee hl m =>
    signer_of_margin m <> CLP_MODULE /\
    match m with
    | MOpen sg _ _ _ _ => 0 <= ms_count s /\ find_mtp s sg (ms_count s + 1) = None
    | _ => True
    end
  | SBlock _ => True
  end.
Fixpoint mrun_ok (s : mstate) (es : list mstep) : Prop :=
  match es with
  | [] => True
  | e :: rest => mstep_ok s e /\ match mstep_apply s e with Some s1 => mrun_ok s1 rest | None => True end
  end.

Theorem mstep_ready s e s' :
  SumInv s -> MReady s -> mstep_ok s e -> mstep_apply s e = Some s' -> SumInv s' /\ MReady s' /\ same_gap s s'.
Proof.
  intros HS HM Hok H. destruct e as [fee hl m|rates]; cbn [mstep_apply] in H.
  - injection H as <-. destruct Hok as (Hsg & Hm). unfold deliver_margin. fold (signer_of_margin m).
    destruct (fee_debit_ready s (signer_of_margin m) fee Hsg HS HM) as (HS0 & HM0 & G0).
    set (s0 := s <| ms_bank := credit (ms_bank s) (signer_of_margin m) ROWAN (- fee) |>) in *.
    assert (Hthen : forall s1, SumInv s1 /\ MReady s1 /\ same_gap s0 s1 -> SumInv s1 /\ MReady s1 /\ same_gap s s1).
    { intros s1 (A1 & A2 & A3). split; [exact A1|]. split; [exact A2|exact (same_gap_trans _ _ _ G0 A3)]. }
    pose proof (Hthen s0 (conj HS0 (conj HM0 (same_gap_refl s0)))) as Hfail.
    destruct m as [sg c b a l|sg id|adm sg addr id tf]; cbn [signer_of_margin] in *.
    + destruct (open_msg s0 hl sg c b a l) as [c' o] eqn:E. destruct o as [u| |]; cbn [snd fst]; try exact Hfail.
      destruct Hm as (Hcnt & Hfresh). apply Hthen. exact (open_ready s0 hl sg c b a l c' u HS0 HM0 Hsg Hcnt Hfresh E).
    + destruct (close_msg s0 sg id) as [c' o] eqn:E. destruct o as [r| |]; cbn [snd fst]; try exact Hfail.
      apply Hthen. exact (close_ready s0 sg id c' r HS0 HM0 E).
    + destruct (admin_close_msg s0 adm addr id tf) as [c' o] eqn:E. destruct o as [r| |]; cbn [snd fst]; try exact Hfail.
      apply Hthen. exact (proj2 (admin_close_ready s0 adm addr id tf c' r HS0 HM0 E)).
  - set (s1 := s <| ms_height := ms_height s + 1 |>) in *.
    destruct (begin_block_margin s1 rates) as [[s2 cl]| |] eqn:E; try discriminate. injection H as <-.
    destruct (begin_block_margin_ready s1 rates s2 cl HS HM E) as (A1 & A2 & A3 & _). auto.
Qed.

(* C13 / C01 over histories: premise on the first state *)
Theorem margin_history es : forall s s',
  SumInv s -> MReady s -> mrun_ok s es -> mrun s es = Some s' ->
  SumInv s' /\ MReady s' /\ same_gap s s'.
Proof.
  induction es as [|e rest IH]; intros s s' HS HM Hok H; cbn [mrun mrun_ok] in *.
  - injection H as <-. split; [exact HS|]. split; [exact HM|apply same_gap_refl].
  - destruct Hok as (Hok1 & Hrest). destruct (mstep_apply s e) as [s1|] eqn:E; [|discriminate].
    destruct (mstep_ready s e s1 HS HM Hok1 E) as (A1 & A2 & A3).
    destruct (IH s1 s' A1 A2 Hrest H) as (B1 & B2 & B3).
    split; [exact B1|]. split; [exact B2|exact (same_gap_trans _ _ _ A3 B3)].
Qed.
