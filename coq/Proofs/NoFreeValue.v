(* C04 — no free value: round trips never profit, backing per unit never drops by more than dust. On integers, as
   cross-multiplied inequalities; only the exact account of the asymmetric add, at the end, is in Q. *)
From Coq Require Import ZArith Lia Bool List QArith Qround Qabs Lqa.
From RecordUpdate Require Import RecordUpdate.
From Sif Require Import Base.Outcome Base.SdkMath Base.Store Base.Bank
  Model.ClpCalc Model.ClpTypes Model.ClpState Model.ClpMsgs
  Proofs.SdkMathProofs Proofs.BankProofs Proofs.ClpInv Proofs.ClpUnits.
From Sif Require Export Proofs.SwapProofs.
Import ListNotations.
Local Open Scope Z_scope.

Lemma Qmake_div (a b : Z) : 0 < b -> (inject_Z a / inject_Z b == a # (Z.to_pos b))%Q.
Proof.
  intros Hb. unfold Qdiv, Qinv, inject_Z. cbn. destruct b; try lia. cbn. unfold Qeq, Qmult; cbn. lia.
Qed.

Lemma Qle_div_Z y n d : 0 < d -> (inject_Z y <= inject_Z n / inject_Z d)%Q <-> y * d <= n.
Proof. intros Hd. rewrite Qmake_div by assumption. unfold Qle; cbn. rewrite Z2Pos.id by lia. lia. Qed.

(* the factor 1 + r of ratio shifting divides when the native token is bought and multiplies when it is sold:
   its denominator and numerator, scaled by 10^18 *)
Definition cden (tr : bool) (r : Z) : Z := if tr then PREC + r else PREC.
Definition cnum (tr : bool) (r : Z) : Z := if tr then PREC else PREC + r.

Lemma adjusted_q_frac tr X x Y r : 0 < X -> 0 < x -> 0 <= r ->
  (adjusted_q tr X x Y r == inject_Z (x * Y * cnum tr r) / inject_Z ((X + x) * cden tr r))%Q.
Proof.
  intros HX Hx Hr. unfold adjusted_q, zq, dec_to_q, cnum, cden.
  assert (Hp : (r # Z.to_pos PREC == inject_Z r / inject_Z PREC)%Q) by (rewrite Qmake_div; [reflexivity|apply PREC_pos]).
  destruct tr; cbv zeta; rewrite Hp; rewrite !inject_Z_mult, !inject_Z_plus.
  all: assert (0 < inject_Z PREC)%Q by (rewrite <- (Zlt_Qlt 0); apply PREC_pos).
  all: assert (0 < inject_Z X)%Q by (rewrite <- (Zlt_Qlt 0); lia).
  all: assert (0 < inject_Z x)%Q by (rewrite <- (Zlt_Qlt 0); lia).
  all: assert (0 <= inject_Z r)%Q by (rewrite <- (Zle_Qle 0); lia).
  all: change (inject_Z 1) with 1%Q; field; repeat split; try lra.
Qed.

(* the swap output, cross-multiplied: y <= x*Y/(X+x) shifted by the ratio-shifting factor *)
Definition swap_le (tr : bool) (X x Y r y : Z) : Prop := y * ((X + x) * cden tr r) <= x * Y * cnum tr r.

Lemma calc_swap_result_le tr X x Y r f y fee :
  0 < X -> 0 < x -> 0 < Y -> 0 <= r -> 0 <= f <= PREC ->
  calc_swap_result tr X x Y r f = Ok (y, fee) -> 0 <= y /\ swap_le tr X x Y r y.
Proof.
  intros HX Hx HY Hr Hf H. pose proof PREC_pos.
  destruct (calc_swap_result_upper _ _ _ _ _ _ _ _ HX Hx HY Hr Hf H) as (Hy & _ & _ & Hq).
  split; [exact Hy|]. rewrite (adjusted_q_frac tr X x Y r HX Hx Hr) in Hq.
  assert (Hd : 0 < (X + x) * cden tr r) by (unfold cden; destruct tr; nia).
  exact (proj1 (Qle_div_Z _ _ _ Hd) Hq).
Qed.

Lemma frac_mono X x1 x2 Y y c d :
  0 < X -> 0 <= x1 <= x2 -> 0 <= Y -> 0 <= d ->
  y * ((X + x1) * c) <= x1 * Y * d -> y * ((X + x2) * c) <= x2 * Y * d.
Proof.
  intros HX Hx HY Hd H.
  assert (A1 : y * ((X + x1) * c) * (X + x2) <= x1 * Y * d * (X + x2)) by (apply Z.mul_le_mono_nonneg_r; lia).
  assert (A2 : x1 * (X + x2) * (Y * d) <= x2 * (X + x1) * (Y * d)) by (apply Z.mul_le_mono_nonneg_r; nia).
  apply Z.mul_le_mono_pos_r with (p := X + x1); lia.
Qed.

Lemma roundtrip_arith tr X x Y r y z x' :
  0 < X -> 0 < x -> 0 < Y -> 0 <= r -> 0 <= z <= y -> y < Y ->
  swap_le tr X x Y r y -> swap_le (negb tr) (Y - y) z (X + x) r x' ->
  x' <= x.
Proof.
  unfold swap_le. intros HX Hx HY Hr Hz HyY L1 L2. pose proof PREC_pos.
  replace (cden (negb tr) r) with (cnum tr r) in L2 by (destruct tr; reflexivity).
  replace (cnum (negb tr) r) with (cden tr r) in L2 by (destruct tr; reflexivity).
  assert (Hn : 0 < cnum tr r) by (unfold cnum; destruct tr; lia).
  assert (Hd : 0 < cden tr r) by (unfold cden; destruct tr; lia).
  apply (frac_mono (Y - y) z y) in L2; try lia.
  replace (Y - y + y) with Y in L2 by lia.
  apply Z.mul_le_mono_pos_r with (p := Y * cnum tr r); lia.
Qed.

(* clause 1 on the calculator; an empty side or a zero amount gives (0, 0) and is included *)
Lemma swap_roundtrip_calc_le tr X x Y r f f' y fee z x' fee' :
  0 <= X -> 0 <= x -> 0 <= r -> 0 <= f <= PREC -> 0 <= f' <= PREC ->
  calc_swap_result tr X x Y r f = Ok (y, fee) ->
  0 <= z <= y -> y < Y ->
  calc_swap_result (negb tr) (Y - y) z (X + x) r f' = Ok (x', fee') ->
  x' <= x.
Proof.
  intros HX Hx Hr Hf Hf' H1 Hz HyY H2.
  destruct (Z.eq_dec z 0) as [->|Hz0].
  { rewrite calc_swap_result_degenerate in H2 by auto. injection H2 as <- _. exact Hx. }
  assert (Hnd : ~ (X = 0 \/ x = 0 \/ Y = 0)).
  { intros Hd. rewrite (calc_swap_result_degenerate _ _ _ _ _ _ Hd) in H1. injection H1 as <- _. lia. }
  destruct (calc_swap_result_le tr X x Y r f y fee ltac:(lia) ltac:(lia) ltac:(lia) Hr Hf H1) as (_ & L1).
  destruct (calc_swap_result_le (negb tr) (Y - y) z (X + x) r f' x' fee' ltac:(lia) ltac:(lia) ltac:(lia) Hr Hf' H2) as (_ & L2).
  apply (roundtrip_arith tr X x Y r y z x'); assumption || lia.
Qed.

Lemma swap_single_leg s sg sent recv amt mn s' emit :
  swap s sg sent recv amt mn = Ok (s', emit) -> (sent = ROWAN \/ recv = ROWAN) ->
  let a := if recv =? ROWAN then sent else recv in
  exists p fee sp, get a (cs_pools s) = Some p /\
    swap_one (recv =? ROWAN) amt (to_spool p) (cp_pmtp (cs_params s)) (fee_rate (cs_params s) sent) = Ok (emit, fee, sp) /\
    cs_pools s' = set a (upd_balances p sp) (cs_pools s) /\ cs_params s' = cs_params s /\ 0 <= amt.
Proof.
  intros H Hroute.
  destruct (swap_inv _ _ _ _ _ _ _ _ H) as (b1 & b2 & mid & pools1 & (_ & _ & _ & Hps & _) & (Hfirst & Hleg) & (S1 & _) & _).
  rewrite (direct_route _ _ Hroute) in Hfirst. destruct Hfirst as (-> & ->).
  destruct Hleg as (p & fee & sp & Hg & Hs & Hp). apply send_effect in S1. exists p, fee, sp. tauto.
Qed.

Definition rates_ok (ps : clp_params) : Prop :=
  0 <= cp_pmtp ps /\ 0 <= cp_fee_default ps <= PREC /\ (forall d f, assoc d (cp_fee_tokens ps) = Some f -> 0 <= f <= PREC).

Lemma fee_rate_ok ps d : rates_ok ps -> 0 <= fee_rate ps d <= PREC.
Proof. intros (_ & Hd & Ht). unfold fee_rate. destruct (assoc d (cp_fee_tokens ps)) eqn:E; [eapply Ht; eassumption|exact Hd]. Qed.

Definition pool_nonneg (p : pool) : Prop := 0 <= p_nb p /\ 0 <= p_eb p /\ 0 <= p_nl p /\ 0 <= p_el p.

Lemma swap_one_roundtrip tr z p r f f' res fee sp z' res' fee' sp' :
  pool_nonneg p -> 0 <= r -> 0 <= f <= PREC -> 0 <= f' <= PREC -> 0 <= z ->
  swap_one tr z (to_spool p) r f = Ok (res, fee, sp) ->
  0 <= z' <= res ->
  swap_one (negb tr) z' (to_spool (upd_balances p sp)) r f' = Ok (res', fee', sp') ->
  res' <= z.
Proof.
  intros (N1 & N2 & N3 & N4) Hr Hf Hf' Hz H1 Hz' H2.
  destruct (swap_one_inv _ _ _ _ _ _ _ _ H1) as (C1 & Hlt & _ & _ & _ & -> & _). apply swap_one_inv, proj1 in H2.
  destruct tr; cbn in C1, Hlt, H2.
  - apply (swap_roundtrip_calc_le true (p_eb p + p_el p) z (p_nb p + p_nl p) r f f' res fee z' res' fee');
      try assumption; try lia.
    rewrite <- H2. cbn [negb]. f_equal; lia.
  - apply (swap_roundtrip_calc_le false (p_nb p + p_nl p) z (p_eb p + p_el p) r f f' res fee z' res' fee');
      try assumption; try lia.
    rewrite <- H2. cbn [negb]. f_equal; lia.
Qed.

Lemma swap_one_nonneg tr z sp r f res fee sp' : swap_one tr z sp r f = Ok (res, fee, sp') -> 0 <= res.
Proof. intros H. apply swap_one_calc in H. exact (calc_swap_result_nonneg _ _ _ _ _ _ _ _ H). Qed.

(* clause 1 on the message handlers, direct routes: swap, then swap the proceeds back *)
Lemma swap_roundtrip_single s sg sent recv amt mn s' emit mn' s'' back :
  rates_ok (cs_params s) ->
  (forall a p, get a (cs_pools s) = Some p -> pool_nonneg p) ->
  (sent = ROWAN \/ recv = ROWAN) -> sent <> recv ->
  swap s sg sent recv amt mn = Ok (s', emit) ->
  swap s' sg recv sent emit mn' = Ok (s'', back) ->
  back <= amt.
Proof.
  intros Hr Hnn Hroute Hne H1 H2.
  destruct (swap_single_leg _ _ _ _ _ _ _ _ H1 Hroute) as (p & fee & sp & Hg & Hl1 & Hp1 & Hps & Hamt).
  assert (Hroute' : recv = ROWAN \/ sent = ROWAN) by tauto.
  destruct (swap_single_leg _ _ _ _ _ _ _ _ H2 Hroute') as (p2 & fee2 & sp2 & Hg2 & Hl2 & _ & _ & _).
  cbv zeta in *. rewrite Hps in Hl2.
  assert (Ea : (if sent =? ROWAN then recv else sent) = (if recv =? ROWAN then sent else recv)).
  { destruct (Z.eqb_spec sent ROWAN), (Z.eqb_spec recv ROWAN); try congruence; destruct Hroute; congruence. }
  rewrite Ea, Hp1, get_set_same in Hg2. injection Hg2 as <-.
  assert (Edir : (sent =? ROWAN) = negb (recv =? ROWAN)).
  { destruct (Z.eqb_spec sent ROWAN), (Z.eqb_spec recv ROWAN); cbn; try congruence; destruct Hroute; congruence. }
  rewrite Edir in Hl2.
  exact (swap_one_roundtrip _ _ _ _ _ _ _ _ _ _ _ _ _ (Hnn _ _ Hg) (proj1 Hr) (fee_rate_ok _ sent Hr) (fee_rate_ok _ recv Hr)
           Hamt Hl1 (conj (swap_one_nonneg _ _ _ _ _ _ _ _ Hl1) (Z.le_refl _)) Hl2).
Qed.

Lemma swap_double_legs s sg sent recv amt mn s' emit :
  swap s sg sent recv amt mn = Ok (s', emit) ->
  sent <> ROWAN -> recv <> ROWAN -> sent <> recv ->
  exists mid p1 p2 fee1 fee2 sp1 sp2, get sent (cs_pools s) = Some p1 /\ get recv (cs_pools s) = Some p2 /\
    swap_one true amt (to_spool p1) (cp_pmtp (cs_params s)) (fee_rate (cs_params s) sent) = Ok (mid, fee1, sp1) /\
    swap_one false mid (to_spool p2) (cp_pmtp (cs_params s)) (fee_rate (cs_params s) sent) = Ok (emit, fee2, sp2) /\
    cs_pools s' = set recv (upd_balances p2 sp2) (set sent (upd_balances p1 sp1) (cs_pools s)) /\
    cs_params s' = cs_params s /\ 0 <= amt.
Proof.
  intros H Hs Hr Hne.
  destruct (swap_inv _ _ _ _ _ _ _ _ H) as (b1 & b2 & mid & pools1 & (_ & _ & _ & Hps & _) & (Hfirst & Hleg) & (S1 & _) & _).
  apply Z.eqb_neq in Hs, Hr. rewrite Hs, Hr in Hfirst. rewrite Hr in Hleg. cbn [negb andb] in Hfirst.
  destruct Hfirst as (p1 & fee1 & sp1 & G1 & L1 & ->), Hleg as (p2 & fee2 & sp2 & G2 & L2 & Hp).
  rewrite get_set_other in G2 by congruence. apply send_effect in S1.
  exists mid, p1, p2, fee1, fee2, sp1, sp2. tauto.
Qed.

(* clause 1, external -> external and back: four legs through two pools *)
Lemma swap_roundtrip_double s sg sent recv amt mn s' emit mn' s'' back :
  rates_ok (cs_params s) ->
  (forall a p, get a (cs_pools s) = Some p -> pool_nonneg p) ->
  sent <> ROWAN -> recv <> ROWAN -> sent <> recv ->
  swap s sg sent recv amt mn = Ok (s', emit) ->
  swap s' sg recv sent emit mn' = Ok (s'', back) ->
  back <= amt.
Proof.
  intros Hr Hnn Hs Hrc Hne H1 H2.
  destruct (swap_double_legs _ _ _ _ _ _ _ _ H1 Hs Hrc Hne) as (m1 & p1 & p2 & fe1 & fe2 & sp1 & sp2 & G1 & G2 & L1 & L2 & Hp & Hps & Hamt).
  destruct (swap_double_legs _ _ _ _ _ _ _ _ H2 Hrc Hs ltac:(congruence)) as (m2 & q2 & q1 & fe3 & fe4 & sq2 & sq1 & G3 & G4 & L3 & L4 & _ & _ & _).
  rewrite Hps in L3, L4. rewrite Hp in G3, G4.
  rewrite get_set_same in G3. injection G3 as <-.
  rewrite get_set_other, get_set_same in G4 by congruence. injection G4 as <-.
  pose proof (fee_rate_ok _ sent Hr) as F1. pose proof (fee_rate_ok _ recv Hr) as F2.
  (* pool of the received asset: m1 -> emit -> m2 <= m1 *)
  assert (Hm : m2 <= m1).
  { exact (swap_one_roundtrip _ _ _ _ _ _ _ _ _ _ _ _ _ (Hnn _ _ G2) (proj1 Hr) F1 F2 (swap_one_nonneg _ _ _ _ _ _ _ _ L1)
             L2 (conj (swap_one_nonneg _ _ _ _ _ _ _ _ L2) (Z.le_refl _)) L3). }
  (* pool of the sent asset: amt -> m1, then m2 <= m1 -> back *)
  exact (swap_one_roundtrip _ _ _ _ _ _ _ _ _ _ _ _ _ (Hnn _ _ G1) (proj1 Hr) F1 F2 Hamt
           L1 (conj (swap_one_nonneg _ _ _ _ _ _ _ _ L3) Hm) L4).
Qed.

(* w is at most the share u/T of N, up to one base unit and 1e-18 relative *)
Definition prorata_le (N u T w : Z) : Prop := (w - 1) * (T * PREC - u) <= N * u * PREC.

(* q is T*P/u and wnd is N*P^2/q, each rounded to nearest, and w <= wnd/P + 1/2 (P = 10^18) *)
Lemma withdraw_core P T u N q wnd w :
  2 <= P -> 0 < u <= T -> 0 <= N -> 0 < q ->
  2 * T * P * P - P * u - 2 * u < 2 * P * (q * u) ->
  2 * P * (wnd * q) <= 2 * (N * P) * P * P + P * q ->
  2 * P * w <= 2 * wnd + P ->
  (w - 1) * (T * P - u) <= N * u * P.
Proof.
  intros HP Hu HN Hq LB UB Hw.
  assert (Hd : 0 <= T * P - u) by nia.
  destruct (Z.le_gt_cases w 1) as [Hle|Hgt]; [nia|].
  assert (S1 : (w - 1) * q <= N * P).
  { apply Z.mul_le_mono_pos_l with (p := 2 * P); [lia|].
    assert (2 * P * w * q <= (2 * wnd + P) * q) by (apply Z.mul_le_mono_nonneg_r; lia). nia. }
  assert (S2 : 2 * P * (T * P - u) <= 2 * P * (q * u)) by nia.
  apply Z.mul_le_mono_pos_l with (p := 2 * P); [lia|].
  assert (2 * P * (T * P - u) * (w - 1) <= 2 * P * (q * u) * (w - 1)) by (apply Z.mul_le_mono_nonneg_r; lia).
  assert (2 * P * u * ((w - 1) * q) <= 2 * P * u * (N * P)) by (apply Z.mul_le_mono_nonneg_l; lia).
  lia.
Qed.

Lemma withdraw_side_prorata T u N :
  0 < u <= T -> 0 <= N ->
  prorata_le N u T (dec_round_int (dec_quo (dec_of_int N) (dec_quo (dec_of_int T) (dec_of_int u)))).
Proof.
  intros Hu HN. pose proof PREC_ge2 as HP. rewrite dec_quo_of_int by lia.
  set (q := dec_quo T u).
  destruct (dec_quo_bounds T u ltac:(lia) ltac:(lia)) as (LB & _). fold q in LB.
  assert (Hq : 0 < q) by nia.
  set (wnd := dec_quo (dec_of_int N) q).
  assert (HNd : 0 <= dec_of_int N) by (unfold dec_of_int; nia).
  destruct (dec_quo_bounds (dec_of_int N) q HNd Hq) as (_ & UB). fold wnd in UB.
  destruct (dec_round_bounds wnd (dec_quo_nonneg _ _ HNd Hq)) as (_ & Hw).
  exact (withdraw_core PREC T u N q wnd _ HP Hu HN Hq LB UB Hw).
Qed.

Lemma calculate_withdrawal_from_units_inv T N E lpu u wn we lft :
  calculate_withdrawal_from_units T N E lpu u = Ok (wn, we, lft) ->
  u <> 0 /\
  let q := dec_quo (dec_of_int T) (dec_of_int u) in
  wn = dec_round_int (dec_quo (dec_of_int N) q) /\
  we = dec_round_int (dec_quo (dec_of_int E) q) /\
  lft = dec_round_int (dec_of_int lpu - dec_of_int u) /\
  0 <= wn /\ 0 <= we /\ 0 <= lft.
Proof.
  unfold calculate_withdrawal_from_units. intros H.
  bind_inv H as q Hq. bind_inv H as qe He. bind_inv H as qn Hn.
  bind_inv H as a Ha. bind_inv H as b Hb. bind_inv H as c Hc. injection H as <- <- <-.
  apply Dquo_ok in Hq, He, Hn. destruct Hq as (Hu & ->), He as (_ & ->), Hn as (_ & ->).
  apply to_uint_ok in Ha, Hb, Hc. destruct Ha as (-> & Ha), Hb as (-> & Hb), Hc as (-> & Hc).
  split; [|cbv zeta; auto 6]. intros ->. apply Hu. reflexivity.
Qed.

Lemma withdraw_from_units_upper T N E lpu u wn we lft :
  0 <= N -> 0 <= E -> 0 <= u <= T ->
  calculate_withdrawal_from_units T N E lpu u = Ok (wn, we, lft) ->
  0 < u /\ prorata_le N u T wn /\ prorata_le E u T we.
Proof.
  intros HN HE Hu H.
  destruct (calculate_withdrawal_from_units_inv _ _ _ _ _ _ _ _ H) as (Hu0 & -> & -> & _).
  split; [lia|]. split; apply withdraw_side_prorata; lia.
Qed.

Lemma swap_amount_nonneg_n R A r a f p s : nat_swap_amount R A r a f p = Ok s -> 0 <= s.
Proof. unfold nat_swap_amount. intros H. repeat inv1 H. apply to_uint_ok in H. lia. Qed.
Lemma swap_amount_nonneg_e R A r a f p s : ext_swap_amount R A r a f p = Ok s -> 0 <= s.
Proof. unfold ext_swap_amount. intros H. repeat inv1 H. apply to_uint_ok in H. lia. Qed.

Lemma symmetry_state_spec X x Y y : 0 < X -> 0 < Y ->
  match symmetry_state X x Y y with
  | EmptyPool => False
  | NothingAdded => x = 0 /\ y = 0
  | Symmetric => x <> 0 /\ Y * x = y * X
  | NeedMoreY => x <> 0 /\ y * X < Y * x
  | NeedMoreX => (x = 0 /\ y <> 0) \/ (x <> 0 /\ Y * x < y * X)
  end.
Proof.
  intros HX HY. unfold symmetry_state.
  destruct (Z.eqb_spec X 0); [lia|]. destruct (Z.eqb_spec Y 0); [lia|]. cbn [orb].
  destruct (Z.eqb_spec x 0); [destruct (Z.eqb_spec y 0); cbn [andb]; auto|]. cbn [andb].
  destruct (Z.compare_spec (Y * x) (y * X)); auto with zarith.
Qed.

(* what CalculatePoolUnits hands out, whatever the internal swap amount is *)
Lemma calculate_pool_units_by_swap P R A r a fs fb pm pu l st sw :
  0 < R -> 0 < A ->
  calculate_pool_units P R A r a fs fb pm = Ok (pu, l, st, sw) ->
  pu = P + l /\
  match st with
  | SellNative => 0 <= sw <= r /\ l = (r - sw) * P / (R + sw)
  | BuyNative => 0 <= sw <= a /\ l = (a - sw) * P / (A + sw)
  | NoSwap => sw = 0 /\ ((a = 0 /\ r = 0 /\ l = 0) \/ (R * a = r * A /\ l = r * P / R))
  end.
Proof.
  intros HR HA H. unfold calculate_pool_units in H.
  pose proof (symmetry_state_spec A a R r HA HR) as Hs.
  destruct (symmetry_state A a R r).
  - destruct Hs.
  - injection H as <- <- <- <-. split; [lia|]. split; [reflexivity|]. left. tauto.
  - repeat inv1 H. use_uints.
    match goal with Hp : pool_units_symmetric _ _ _ = Ok _ |- _ => apply pool_units_symmetric_ok in Hp; destruct Hp end.
    match goal with Hp : ext_swap_amount _ _ _ _ _ _ = Ok _ |- _ => apply swap_amount_nonneg_e in Hp end.
    subst. split; [reflexivity|]. split; [lia|reflexivity].
  - repeat inv1 H.
    match goal with Hp : pool_units_symmetric _ _ _ = Ok _ |- _ => apply pool_units_symmetric_ok in Hp; destruct Hp end.
    subst. split; [reflexivity|]. split; [reflexivity|]. right. split; [tauto|reflexivity].
  - repeat inv1 H. use_uints.
    match goal with Hp : pool_units_symmetric _ _ _ = Ok _ |- _ => apply pool_units_symmetric_ok in Hp; destruct Hp end.
    match goal with Hp : nat_swap_amount _ _ _ _ _ _ = Ok _ |- _ => apply swap_amount_nonneg_n in Hp end.
    subst. split; [reflexivity|]. split; [lia|reflexivity].
Qed.

Lemma calculate_pool_units_le P R A r a fs fb pm pu l st sw :
  0 <= P -> 0 < R -> 0 < A -> 0 <= r ->
  calculate_pool_units P R A r a fs fb pm = Ok (pu, l, st, sw) ->
  pu = P + l /\ 0 <= l /\
  match st with
  | SellNative => 0 <= sw <= r /\ l * (R + sw) <= (r - sw) * P
  | BuyNative => 0 <= sw <= a /\ l * (A + sw) <= (a - sw) * P
  | NoSwap => sw = 0 /\ ((a = 0 /\ r = 0 /\ l = 0) \/ (R * a = r * A /\ l * R <= r * P))
  end.
Proof.
  intros HP HR HA Hr H.
  assert (Hfloor : forall n d, 0 <= n -> 0 < d -> 0 <= n / d /\ n / d * d <= n).
  { intros n d Hn Hd. split; [apply Z.div_pos; assumption|]. pose proof (Z.mul_div_le n d Hd). lia. }
  destruct (calculate_pool_units_by_swap _ _ _ _ _ _ _ _ _ _ _ _ HR HA H) as (-> & Hst). split; [reflexivity|].
  destruct st.
  - destruct Hst as (Hs & ->). destruct (Hfloor ((r - sw) * P) (R + sw)); [nia|lia|]. auto.
  - destruct Hst as (Hs & ->). destruct (Hfloor ((a - sw) * P) (A + sw)); [nia|lia|]. auto.
  - destruct Hst as (-> & [(-> & -> & ->)|(Hsym & ->)]); [split; [lia|auto]|].
    destruct (Hfloor (r * P) R); [nia|lia|]. auto.
Qed.

(* clause 2: what comes back is at most what was given, up to one base unit and 1e-18 relative *)
Definition returns_at_most (given back : Z) : Prop := (back - 1) * (PREC - 1) <= given * PREC.

Lemma returns_at_most_small given back : returns_at_most given back -> 0 <= given < PREC - 1 -> back <= given + 1.
Proof. unfold returns_at_most. intros H Hg. pose proof PREC_ge2. nia. Qed.

Lemma side_returns P X x s l w :
  0 < P -> 0 <= s <= x -> l * (X + s) <= (x - s) * P -> 0 < l ->
  prorata_le (X + x) l (P + l) w ->
  returns_at_most x w.
Proof.
  intros HP Hs Hfl Hl Hw. unfold returns_at_most, prorata_le in *. pose proof PREC_ge2 as HPb.
  destruct (Z.le_gt_cases w 1) as [Hle|Hgt]; [nia|].
  assert (B1 : (w - 1) * ((P + l) * (PREC - 1)) <= (w - 1) * ((P + l) * PREC - l)) by (apply Z.mul_le_mono_nonneg_l; nia).
  assert (B2 : (X + x) * l * PREC <= (P + l) * x * PREC) by (apply Z.mul_le_mono_nonneg_r; nia).
  apply Z.mul_le_mono_pos_l with (p := P + l); lia.
Qed.

(* clause 2, first part: the side that was (partly) swapped internally — both sides of a symmetric add — returns
   at most what was put in, for ANY internal swap amount 0 <= s <= deposit *)
Lemma add_remove_calc P R A r a fs fb pm pu l st sw lpu wn we lft :
  0 < P -> 0 < R -> 0 < A -> 0 <= r -> 0 <= a ->
  calculate_pool_units P R A r a fs fb pm = Ok (pu, l, st, sw) ->
  calculate_withdrawal_from_units pu (R + r) (A + a) lpu l = Ok (wn, we, lft) ->
  match st with
  | SellNative => returns_at_most r wn
  | BuyNative => returns_at_most a we
  | NoSwap => returns_at_most r wn /\ returns_at_most a we
  end.
Proof.
  intros HP HR HA Hr Ha H1 H2.
  destruct (calculate_pool_units_le _ _ _ _ _ _ _ _ _ _ _ _ (Z.lt_le_incl _ _ HP) HR HA Hr H1) as (-> & Hl0 & Hst).
  destruct (withdraw_from_units_upper (P + l) (R + r) (A + a) lpu l wn we lft ltac:(lia) ltac:(lia) ltac:(lia) H2)
    as (Hlpos & Wn & We).
  destruct st.
  - destruct Hst as (Hs & Hl). apply (side_returns P R r sw l wn); assumption.
  - destruct Hst as (Hs & Hl). apply (side_returns P A a sw l we); assumption.
  - destruct Hst as (_ & [(_ & _ & ->)|(Hsym & HlR)]); [lia|].
    split.
    + apply (side_returns P R r 0 l wn); try assumption; lia.
    + apply (side_returns P A a 0 l we); try assumption; try lia.
      assert (l * R * A <= r * P * A) by (apply Z.mul_le_mono_nonneg_r; lia).
      assert (R * a * P = r * A * P) by (rewrite Hsym; reflexivity).
      apply Z.mul_le_mono_pos_r with (p := R); lia.
Qed.

(* clause 3: backing per unit is sqrt(R*A)/P, compared through its square: that of (R', A', P') is at least
   that of (R, A, P) *)
Definition backing_le (R A P R' A' P' : Z) : Prop := R * A * (P' * P') <= R' * A' * (P * P).

(* swaps with ratio shifting off: the product of the depths never decreases, units are untouched *)
Lemma swap_backing tr X x Y f y fee :
  0 < X -> 0 < x -> 0 < Y -> 0 <= f <= PREC ->
  calc_swap_result tr X x Y 0 f = Ok (y, fee) -> X * Y <= (X + x) * (Y - y).
Proof.
  intros HX Hx HY Hf H. pose proof PREC_pos.
  destruct (calc_swap_result_le _ _ _ _ _ _ _ _ HX Hx HY (Z.le_refl 0) Hf H) as (Hy & L).
  assert (y * (X + x) <= x * Y).
  { apply Z.mul_le_mono_pos_r with (p := PREC); [lia|]. unfold swap_le, cden, cnum in L. destruct tr; lia. }
  nia.
Qed.

(* liquidity added with an internal swap of s of the deposited side (s = 0: symmetric add):
   backing does not drop provided s is at least the fee-less root, i.e. R*A*(R+r) <= (A+a)*(R+s)^2 *)
Definition near_root (R A r a s : Z) : Prop := R * A * (R + r) <= (A + a) * ((R + s) * (R + s)).

Lemma add_backing P R A r a s l :
  0 < P -> 0 < R -> 0 < A -> 0 <= s <= r -> 0 <= l ->
  l * (R + s) <= (r - s) * P -> near_root R A r a s ->
  backing_le R A P (R + r) (A + a) (P + l).
Proof.
  intros HP HR HA Hs Hl Hfl Hnr. unfold backing_le, near_root in *.
  assert (K1 : (P + l) * (R + s) <= P * (R + r)) by lia.
  assert (K2 : ((P + l) * (R + s)) * ((P + l) * (R + s)) <= (P * (R + r)) * (P * (R + r))) by (apply Z.mul_le_mono_nonneg; nia).
  assert (A1 : R * A * (((P + l) * (R + s)) * ((P + l) * (R + s))) <= R * A * ((P * (R + r)) * (P * (R + r))))
    by (apply Z.mul_le_mono_nonneg_l; [nia|exact K2]).
  assert (A2 : R * A * (R + r) * (P * P * (R + r)) <= (A + a) * ((R + s) * (R + s)) * (P * P * (R + r)))
    by (apply Z.mul_le_mono_nonneg_r; [nia|exact Hnr]).
  apply Z.mul_le_mono_pos_r with (p := (R + s) * (R + s)); [nia|lia].
Qed.

Lemma near_root_symmetric R A r a : R * a = r * A -> near_root R A r a 0.
Proof.
  intros H. unfold near_root. assert (R * (R * a) = R * (r * A)) by (rewrite H; reflexivity). lia.
Qed.

Lemma backing_le_swap R A P R' A' P' : backing_le A R P A' R' P' -> backing_le R A P R' A' P'.
Proof. unfold backing_le. rewrite (Z.mul_comm A R), (Z.mul_comm A' R'). exact (fun H => H). Qed.

(* symmetric adds exactly (no dust); asymmetric adds under near_root for the internal swap amount *)
Lemma add_backing_asymmetric P R A r a fs fb pm pu l st sw :
  0 < P -> 0 < R -> 0 < A -> 0 <= r -> 0 <= a ->
  calculate_pool_units P R A r a fs fb pm = Ok (pu, l, st, sw) ->
  match st with
  | SellNative => near_root R A r a sw -> backing_le R A P (R + r) (A + a) pu
  | BuyNative => near_root A R a r sw -> backing_le R A P (R + r) (A + a) pu
  | NoSwap => backing_le R A P (R + r) (A + a) pu
  end.
Proof.
  intros HP HR HA Hr Ha H.
  destruct (calculate_pool_units_le _ _ _ _ _ _ _ _ _ _ _ _ (Z.lt_le_incl _ _ HP) HR HA Hr H) as (-> & Hl0 & Hst).
  destruct st.
  - destruct Hst as (Hs & Hl). intros Hn. apply (add_backing P R A r a sw l); assumption.
  - destruct Hst as (Hs & Hl). intros Hn. apply backing_le_swap, (add_backing P A R a r sw l); assumption.
  - destruct Hst as (_ & [(-> & -> & ->)|(Hsym & Hl)]).
    + unfold backing_le. rewrite !Z.add_0_r. lia.
    + apply (add_backing P R A r a 0 l); try assumption; try lia. apply near_root_symmetric. exact Hsym.
Qed.

(* removals: each side keeps its pro-rata share up to dust(R) = 2 + R/(10^18 - 1) base units *)
Definition dust18 (R : Z) : Z := 2 + R / (PREC - 1).

(* D = 10^18, k = R / (D - 1) *)
Lemma keeps_core D P u R w k :
  2 <= D -> 0 <= R -> 0 < u <= P -> 0 <= k -> R < (k + 1) * (D - 1) ->
  (w - 1) * (P * D - u) <= R * u * D ->
  (w - 1) * P <= R * u + (k + 1) * P.
Proof.
  intros HD HR Hu Hk HRk H.
  destruct (Z.le_gt_cases w 1) as [Hle|Hgt]; [nia|].
  assert (B1 : (w - 1) * (P * (D - 1)) <= (w - 1) * (P * D - u)) by (apply Z.mul_le_mono_nonneg_l; lia).
  assert (B2 : R * u <= R * P) by (apply Z.mul_le_mono_nonneg_l; lia).
  assert (B3 : R * P <= (k + 1) * (D - 1) * P) by (apply Z.mul_le_mono_nonneg_r; lia).
  apply Z.mul_le_mono_pos_r with (p := D - 1); lia.
Qed.

Lemma prorata_keeps P u R w :
  0 <= R -> 0 < u <= P -> prorata_le R u P w -> R * (P - u) <= (R - w + dust18 R) * P.
Proof.
  intros HR Hu H. pose proof PREC_ge2 as HD. unfold dust18.
  pose proof (Z.div_mod R (PREC - 1) ltac:(lia)). pose proof (Z.mod_pos_bound R (PREC - 1) ltac:(lia)).
  set (k := R / (PREC - 1)) in *.
  pose proof (keeps_core PREC P u R w k HD HR Hu ltac:(apply Z.div_pos; lia) ltac:(lia) H). lia.
Qed.

Lemma remove_units_backing P R A lpu u wn we lft :
  0 < P -> 0 <= R -> 0 <= A -> 0 <= u <= P ->
  calculate_withdrawal_from_units P R A lpu u = Ok (wn, we, lft) ->
  R * (P - u) <= (R - wn + dust18 R) * P /\ A * (P - u) <= (A - we + dust18 A) * P /\
  backing_le R A P (R - wn + dust18 R) (A - we + dust18 A) (P - u).
Proof.
  intros HP HR HA Hu H.
  destruct (withdraw_from_units_upper _ _ _ _ _ _ _ _ HR HA Hu H) as (Hu0 & Wn & We).
  pose proof (prorata_keeps P u R wn HR ltac:(lia) Wn) as T1.
  pose proof (prorata_keeps P u A we HA ltac:(lia) We) as T2.
  split; [exact T1|]. split; [exact T2|]. unfold backing_le.
  assert (R * (P - u) * (A * (P - u)) <= (R - wn + dust18 R) * P * ((A - we + dust18 A) * P)) by (apply Z.mul_le_mono_nonneg; nia).
  lia.
Qed.

(* clause 2, second part: the algebra behind "no better than swapping".
   In exact arithmetic an asymmetric add is an internal swap of s at the public price followed by a
   symmetric add; s is the positive root of a quadratic. The code's closed forms are that root. *)
Local Open Scope Q_scope.
(* CalculatePoolUnits without rounding: a deposit that is symmetric after an internal swap of s for e,
   (r-s)/(R+s) = (a+e)/(A-e), earns the share (r-s)/(R+r); of the external side A+a that is a+e *)
Lemma asym_add_remove_exact (R A r a s e : Q) :
  (r - s) * (A - e) == (a + e) * (R + s) -> (A + a) * (r - s) == (a + e) * (R + r).
Proof. intros H. assert ((A + a) * (r - s) - (a + e) * (R + r) == (r - s) * (A - e) - (a + e) * (R + s)) by ring. lra. Qed.

Lemma sqrt_div_abs_inv (D : Q) (num : Z -> Q) (den s : Q) :
  bind (approx_sqrt D) (fun root => bind (qdiv_ck (num root) den) (fun q => Ok (Qabs q))) = Ok s ->
  exists z, approx_sqrt D = Ok z /\ ~ den == 0 /\ s = Qabs (num z / den).
Proof.
  intros H. apply bind_ok_inv in H. destruct H as (z & Ez & H).
  apply bind_ok_inv in H. destruct H as (q & Eq & H).
  unfold qdiv_ck in Eq. destruct (q_is_zero den) eqn:Enz; [discriminate|].
  exists z. split; [exact Ez|]. split; [|congruence].
  intros Hc. unfold q_is_zero in Enz. apply Z.eqb_neq in Enz. apply Enz. unfold Qeq in Hc. rewrite Z.mul_1_r in Hc. exact Hc.
Qed.

Definition sell_w (R A r a f p : Q) : Q := 2 * a * R + A * R * (1 + (1 + p) * (1 - f)) - A * r * (1 - (1 + p) * (1 - f)).

(* nat_swap_amount: s native is sold for e = s*A*(1+p)*(1-f)/(R+s); the condition above times R+s, left minus right *)
Lemma sell_native_quadratic (R A r a s f p : Q) :
  (r - s) * (A * (R + s) - s * A * ((1 + p) * (1 - f))) - (a * (R + s) + s * A * ((1 + p) * (1 - f))) * (R + s)
  == - ((a + A) * s * s + sell_w R A r a f p * s + R * (a * R - A * r)).
Proof. unfold sell_w. ring. Qed.

(* D is the discriminant only up to ==: approx_sqrt reads numerator and denominator *)
Lemma nat_swap_amount_rat_root (R A r a f p : Q) s :
  nat_swap_amount_rat R A r a f p = Ok s ->
  exists (D : Q) (z : Z),
    D == sell_w R A r a f p * sell_w R A r a f p - 4 * (a + A) * (R * (a * R - A * r)) /\
    approx_sqrt D = Ok z /\ ~ (a + A) * 2 == 0 /\
    s == Qabs ((inject_Z z - sell_w R A r a f p) / (2 * (a + A))).
Proof.
  unfold nat_swap_amount_rat. cbv zeta. intros H.
  apply sqrt_div_abs_inv in H. destruct H as (z & Ez & Hnz & ->).
  eexists _, z. split; [|split; [exact Ez|split; [exact Hnz|]]].
  - unfold sell_w. ring.
  - apply Qabs_wd. unfold sell_w. field. intros Hc. apply Hnz. lra.
Qed.

Definition buy_w (R A r a f p : Q) : Q :=
  2 * r * A * (1 + p) + R * A * ((1 + p) + (1 - f)) - R * a * ((1 + p) - (1 - f)).

(* ext_swap_amount: s external is sold for e = s*R*(1-f)/((A+s)*(1+p)); (a-s)*(R-e) = (r+e)*(A+s) times (A+s)*(1+p) *)
Lemma buy_native_quadratic (R A r a s f p : Q) :
  (1 + p) * ((a - s) * (R * (A + s)) - (r * (A + s)) * (A + s)) - ((a - s) * (s * R * (1 - f)) + (s * R * (1 - f)) * (A + s))
  == - ((r + R) * (1 + p) * s * s + buy_w R A r a f p * s + A * (r * A - R * a) * (1 + p)).
Proof. unfold buy_w. ring. Qed.

Lemma ext_swap_amount_rat_root (R A r a f p : Q) s :
  ext_swap_amount_rat R A r a f p = Ok s ->
  exists (D : Q) (z : Z),
    D == buy_w R A r a f p * buy_w R A r a f p - 4 * ((r + R) * (1 + p)) * (A * (r * A - R * a) * (1 + p)) /\
    approx_sqrt D = Ok z /\ ~ 2 * (p + 1) * (r + R) == 0 /\
    s == Qabs ((inject_Z z - buy_w R A r a f p) / (2 * ((r + R) * (1 + p)))).
Proof.
  unfold ext_swap_amount_rat. cbv zeta. intros H.
  apply sqrt_div_abs_inv in H. destruct H as (z & Ez & Hnz & ->).
  eexists _, z. split; [|split; [exact Ez|split; [exact Hnz|]]].
  - unfold buy_w. ring.
  - apply Qabs_wd. unfold buy_w. field. repeat split; intros Hc; apply Hnz; nra.
Qed.
Local Close Scope Q_scope.
Local Open Scope Z_scope.

Lemma returns_at_most_div given back : returns_at_most given back -> back <= given + 1 + given / (PREC - 1).
Proof.
  unfold returns_at_most. intros H. assert (HPb := PREC_ge2).
  assert ((back - 1 - given) * (PREC - 1) <= given) by lia.
  destruct (Z.le_gt_cases (back - 1 - given) (given / (PREC - 1))) as [Hle|Hgt]; [lia|].
  pose proof (Z.div_mod given (PREC - 1) ltac:(lia)). pose proof (Z.mod_pos_bound given (PREC - 1) ltac:(lia)). nia.
Qed.

(* the property's wording: an add followed by the removal of the units received never returns more
   of BOTH tokens (beyond one base unit and 1e-18 relative) *)
Lemma add_remove_not_both P R A r a fs fb pm pu l st sw lpu wn we lft :
  0 < P -> 0 < R -> 0 < A -> 0 <= r -> 0 <= a ->
  calculate_pool_units P R A r a fs fb pm = Ok (pu, l, st, sw) ->
  calculate_withdrawal_from_units pu (R + r) (A + a) lpu l = Ok (wn, we, lft) ->
  ~ (r + 1 + r / (PREC - 1) < wn /\ a + 1 + a / (PREC - 1) < we).
Proof.
  intros HP HR HA Hr Ha H1 H2 (B1 & B2).
  pose proof (add_remove_calc _ _ _ _ _ _ _ _ _ _ _ _ _ _ _ _ HP HR HA Hr Ha H1 H2) as H.
  destruct st.
  - apply returns_at_most_div in H; lia.
  - apply returns_at_most_div in H; lia.
  - destruct H as (H & _). apply returns_at_most_div in H; lia.
Qed.
