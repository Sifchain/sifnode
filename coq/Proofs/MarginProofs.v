(* x/margin (model of Model/Margin.v). C13: positions agree with pool totals; liquidation only when unhealthy. C01: what the
   module account holds beyond what the pools record never changes. The relations defined here are those of the statements of
   C13 and C01; they hold of completed runs under hypotheses on the starting context, so the walks over the keeper functions
   are by hand, on the Ok outcome. What every step respects at any outcome is walked in MarginLoop over MarginResp. *)
From Coq Require Import ZArith Lia Bool List QArith.
From RecordUpdate Require Import RecordUpdate.
From Sif Require Import Base.Outcome Base.SdkMath Base.Store Base.Bank Model.ClpCalc Model.Margin Proofs.SdkMathProofs Proofs.PayoutProofs Proofs.NoFreeValue
  Proofs.BankProofs Proofs.ClpInv.
Import ListNotations.
Local Open Scope Z_scope.

Lemma bindP_ok {A B} (m : PM A) (f : A -> PM B) c c' b :
  bindP m f c = (c', Ok b) -> exists c1 a, m c = (c1, Ok a) /\ f a c1 = (c', Ok b).
Proof.
  unfold bindP. destruct (m c) as [c1 o]. destruct o; intros H; try (inversion H; fail). eauto.
Qed.

Lemma lift_ok {A} (o : Outcome A) c c' a : lift o c = (c', Ok a) -> c' = c /\ o = Ok a.
Proof. unfold lift. intros [= <- ->]. auto. Qed.
Lemma bind_lift_ok {A B} (o : Outcome A) (f : A -> PM B) c c' b :
  bindP (lift o) f c = (c', Ok b) -> exists a, o = Ok a /\ f a c = (c', Ok b).
Proof. unfold bindP, lift. destruct o; [eauto|discriminate..]. Qed.
Lemma ret_ok {A} (x : A) c c' a : ret x c = (c', Ok a) -> c' = c /\ a = x.
Proof. unfold ret. intros [= <- <-]. auto. Qed.
Lemma getc_ok c c' a : getc c = (c', Ok a) -> c' = c /\ a = c.
Proof. unfold getc. intros [= <- <-]. auto. Qed.
Lemma modc_ok f c c' a : modc f c = (c', Ok a) -> c' = f c.
Proof. unfold modc. intros [= <- _]. reflexivity. Qed.
Lemma failM_not_ok {A} c c' (a : A) : failM c = (c', Ok a) -> False.
Proof. unfold failM, lift. intros H. inversion H. Qed.

(* H : (x <-- m ;; k) c = (c', Ok b). step_getc: m is getc, H becomes k c c = ..; step_ok: m returned Ok a in context c1
   (E : m c = (c1, Ok a)), H becomes k a c1 = .. *)
Ltac step_getc H := unfold bindP at 1 in H; cbn [getc] in H.
Tactic Notation "step_ok" hyp(H) "as" ident(c1) ident(a) ident(E) :=
  apply bindP_ok in H; destruct H as (c1 & a & E & H).

Lemma upd_pool_ok f c c' a : upd_pool f c = (c', Ok a) -> exists p, f (c_pool c) = Ok p /\ c' = c <| c_pool := p |>.
Proof.
  unfold upd_pool. intros H. step_getc H. apply bind_lift_ok in H. destruct H as (p & E & H).
  apply modc_ok in H. eauto.
Qed.
Lemma upd_mtp_ok f c c' a : upd_mtp f c = (c', Ok a) -> exists m, f (c_mtp c) = Ok m /\ c' = c <| c_mtp := m |>.
Proof.
  unfold upd_mtp. intros H. step_getc H. apply bind_lift_ok in H. destruct H as (m & E & H).
  apply modc_ok in H. eauto.
Qed.
Lemma set_pool_ok c c' a : set_pool c = (c', Ok a) ->
  c' = c <| c_s := (c_s c) <| ms_pools := set (c_asset c) (c_pool c) (ms_pools (c_s c)) |> |>.
Proof. unfold set_pool. intros H. apply modc_ok in H. exact H. Qed.
Lemma bank_send_ok from to d x c c' a : bank_send from to d x c = (c', Ok a) ->
  exists b, send (ms_bank (c_s c)) from to d x = Some b /\ c' = c <| c_s := (c_s c) <| ms_bank := b |> |>.
Proof.
  unfold bank_send. intros H. step_getc H.
  destruct (send _ _ _ _ _) as [b|]; [|exfalso; eapply failM_not_ok; eassumption].
  apply modc_ok in H. eauto.
Qed.

Section Tot.
Variable g : mtp -> Z.
Definition tot (s : mstate) : Z := sumf (sumf g) (ms_mtps s).
Definition gopt (o : option mtp) : Z := match o with Some m => g m | None => 0 end.

Lemma tot_put s addr id m : tot (put_mtp s addr id m) = tot s - gopt (find_mtp s addr id) + g m.
Proof.
  unfold tot, put_mtp, find_mtp, mtps_of. cbn -[sumf Store.set get]. rewrite sumf_set.
  destruct (get addr (ms_mtps s)) as [inner|] eqn:E; cbn [fopt].
  - rewrite sumf_set. unfold fopt, gopt. destruct (get id inner); lia.
  - cbn. unfold gopt. lia.
Qed.

Lemma tot_del s addr id :
  tot (s <| ms_mtps := set addr (del id (mtps_of s addr)) (ms_mtps s) |>) = tot s - gopt (find_mtp s addr id).
Proof.
  unfold tot, find_mtp, mtps_of. cbn -[sumf Store.set get del]. rewrite sumf_set.
  destruct (get addr (ms_mtps s)) as [inner|] eqn:E; cbn [fopt].
  - rewrite sumf_del. unfold fopt, gopt. destruct (get id inner); lia.
  - cbn. unfold gopt. lia.
Qed.
End Tot.

Section Sums.
Context {V : Type} (f : V -> Z).
Lemma sumf_in_nonneg (m : store V) : (forall kv, In kv m -> 0 <= f (snd kv)) -> 0 <= sumf f m.
Proof.
  induction m as [|kv m IH]; intros H; cbn [sumf fold_right]; [lia|]. fold (sumf f m).
  pose proof (H kv (or_introl eq_refl)). pose proof (IH (fun kv' Hi => H kv' (or_intror Hi))). lia.
Qed.
Lemma sumf_in_le (m : store V) kv : (forall kv, In kv m -> 0 <= f (snd kv)) -> In kv m -> f (snd kv) <= sumf f m.
Proof.
  induction m as [|kv' m IH]; intros H Hin; [destruct Hin|]. cbn [sumf fold_right]. fold (sumf f m).
  pose proof (H kv' (or_introl eq_refl)). pose proof (sumf_in_nonneg m (fun kv'' Hi => H kv'' (or_intror Hi))).
  destruct Hin as [->|Hin]; [lia|]. pose proof (IH (fun kv'' Hi => H kv'' (or_intror Hi)) Hin). lia.
Qed.
End Sums.

Section TotIn.
Variables (g : mtp -> Z) (s : mstate).
Hypothesis Hg : forall a inner i m, In (a, inner) (ms_mtps s) -> In (i, m) inner -> 0 <= g m.
Lemma tot_nonneg : 0 <= tot g s.
Proof. apply sumf_in_nonneg. intros [a inner] Hin. apply sumf_in_nonneg. intros [i m] Hi. exact (Hg _ _ _ _ Hin Hi). Qed.
Lemma tot_ge addr id m : find_mtp s addr id = Some m -> g m <= tot g s.
Proof.
  unfold find_mtp, mtps_of, tot. destruct (get addr (ms_mtps s)) as [inner|] eqn:E; [|discriminate]. intros Hf.
  apply get_in in E. apply get_in in Hf.
  pose proof (sumf_in_le g inner (id, m) (fun kv Hi => Hg addr inner (fst kv) (snd kv) E ltac:(destruct kv; exact Hi)) Hf) as H1.
  pose proof (sumf_in_le (sumf g) (ms_mtps s) (addr, inner)) as H2. cbn [snd] in H1, H2.
  assert (g m <= sumf g inner) by exact H1. etransitivity; [eassumption|]. apply H2; [|exact E].
  intros [a' inner'] Hin. apply sumf_in_nonneg. intros [i m'] Hi. exact (Hg _ _ _ _ Hin Hi).
Qed.
End TotIn.

(* per-asset contributions of a position to the four pool totals (asset a <> ROWAN) *)
Definition g_nc (a : Z) (m : mtp) : Z := if m_coll_asset m =? a then m_cust_amt m else 0.
Definition g_ec (a : Z) (m : mtp) : Z := if m_cust_asset m =? a then m_cust_amt m else 0.
Definition g_nl (a : Z) (m : mtp) : Z := if m_cust_asset m =? a then m_liab m else 0.
Definition g_el (a : Z) (m : mtp) : Z := if m_coll_asset m =? a then m_liab m else 0.
Definition g_one (m : mtp) : Z := 1.

(* a position lives on exactly one pool: one of its assets is the native token, the other the pool's *)
Definition on_pool (a : Z) (m : mtp) : Prop :=
  a <> ROWAN /\ ((m_coll_asset m = ROWAN /\ m_cust_asset m = a) \/ (m_cust_asset m = ROWAN /\ m_coll_asset m = a)).

Definition pool_agrees (s : mstate) (a : Z) (p : mpool) : Prop :=
  q_nc p = tot (g_nc a) s /\ q_ec p = tot (g_ec a) s /\ q_nl p = tot (g_nl a) s /\ q_el p = tot (g_el a) s.

(* not the invariant of C13 (that is SumInv); no theorem uses it *)
Definition MInv (s : mstate) : Prop :=
  (forall a p, get a (ms_pools s) = Some p -> a <> ROWAN /\ pool_agrees s a p) /\
  ms_open s = tot g_one s /\
  (forall addr id m, find_mtp s addr id = Some m -> 0 < id <= ms_count s /\ on_pool (pool_asset_of m) m /\
       exists p, get (pool_asset_of m) (ms_pools s) = Some p).

Definition others (g : mtp -> Z) (c : mctx) : Z := tot g (c_s c) - gopt g (find_mtp (c_s c) (c_addr c) (c_id c)).

(* cu / li: is the in-memory position's custody / are its liabilities currently booked on the in-memory pool *)
Definition Link (cu li : bool) (c : mctx) : Prop :=
  let a := c_asset c in let P := c_pool c in let M := c_mtp c in
  q_nc P = others (g_nc a) c + (if cu then g_nc a M else 0) /\
  q_ec P = others (g_ec a) c + (if cu then g_ec a M else 0) /\
  q_nl P = others (g_nl a) c + (if li then g_nl a M else 0) /\
  q_el P = others (g_el a) c + (if li then g_el a M else 0).

(* what Link looks at: the four pool totals, and the rest (position core, key, stored positions) *)
Definition pool4_eq (c c' : mctx) : Prop :=
  q_nc (c_pool c') = q_nc (c_pool c) /\ q_ec (c_pool c') = q_ec (c_pool c) /\
  q_nl (c_pool c') = q_nl (c_pool c) /\ q_el (c_pool c') = q_el (c_pool c).
Definition mcore_eq (c c' : mctx) : Prop :=
  m_coll_asset (c_mtp c') = m_coll_asset (c_mtp c) /\ m_cust_asset (c_mtp c') = m_cust_asset (c_mtp c) /\
  m_cust_amt (c_mtp c') = m_cust_amt (c_mtp c) /\ m_liab (c_mtp c') = m_liab (c_mtp c) /\
  c_asset c' = c_asset c /\ c_addr c' = c_addr c /\ c_id c' = c_id c /\
  ms_mtps (c_s c') = ms_mtps (c_s c) /\ ms_open (c_s c') = ms_open (c_s c) /\ ms_count (c_s c') = ms_count (c_s c) /\
  ms_params (c_s c') = ms_params (c_s c) /\ ms_height (c_s c') = ms_height (c_s c) /\
  (forall a', a' <> c_asset c -> get a' (ms_pools (c_s c')) = get a' (ms_pools (c_s c))).
Definition core_eq (c c' : mctx) : Prop := pool4_eq c c' /\ mcore_eq c c'.

Lemma mcore_eq_trans c1 c2 c3 : mcore_eq c1 c2 -> mcore_eq c2 c3 -> mcore_eq c1 c3.
Proof.
  (* field by field through c2 *)
  unfold mcore_eq. intros A B. repeat split; try (etransitivity; [apply B|apply A]).
  all: try assumption. replace (c_asset c2) with (c_asset c1) by (symmetry; apply A). assumption.
Qed.
Lemma core_eq_refl c : core_eq c c.
Proof. unfold core_eq, pool4_eq, mcore_eq. repeat split; reflexivity. Qed.
Lemma core_eq_trans c1 c2 c3 : core_eq c1 c2 -> core_eq c2 c3 -> core_eq c1 c3.
Proof. unfold core_eq, pool4_eq. intros (P1 & M1) (P2 & M2). split; [intuition congruence|eapply mcore_eq_trans; eassumption]. Qed.

Lemma tot_core g s s' : ms_mtps s' = ms_mtps s -> tot g s' = tot g s.
Proof. unfold tot. intros ->. reflexivity. Qed.
Lemma find_core s s' addr id : ms_mtps s' = ms_mtps s -> find_mtp s' addr id = find_mtp s addr id.
Proof. unfold find_mtp, mtps_of. intros ->. reflexivity. Qed.

Lemma others_core g c c' : mcore_eq c c' -> others g c' = others g c.
Proof.
  unfold mcore_eq, others. intros (_&_&_&_&_&Haddr&Hid&Hmtps&_).
  rewrite (tot_core g _ _ Hmtps), (find_core _ _ _ _ Hmtps), Haddr, Hid. reflexivity.
Qed.

Lemma Link_core cu li c c' : core_eq c c' -> Link cu li c -> Link cu li c'.
Proof.
  intros (HP & H) L. pose proof HP as (E1&E2&E3&E4). pose proof H as (E5&E6&E7&E8&E9&_).
  unfold Link in *. rewrite !(others_core _ _ _ H), E1, E2, E3, E4, E9.
  unfold g_nc, g_ec, g_nl, g_el in *. rewrite E5, E6, E7, E8. exact L.
Qed.

(* C01: the in-memory pool's records (balance + custody) against the module account *)
Definition Gn (c : mctx) : Z := bal (ms_bank (c_s c)) CLP_MODULE ROWAN - (q_nb (c_pool c) + q_nc (c_pool c)).
Definition Ge (c : mctx) : Z := bal (ms_bank (c_s c)) CLP_MODULE (c_asset c) - (q_eb (c_pool c) + q_ec (c_pool c)).
Definition gap_eq (c c' : mctx) : Prop :=
  Gn c' = Gn c /\ Ge c' = Ge c /\ c_asset c' = c_asset c /\
  (forall d, d <> ROWAN -> d <> c_asset c -> bal (ms_bank (c_s c')) CLP_MODULE d = bal (ms_bank (c_s c)) CLP_MODULE d).

Lemma gap_eq_refl c : gap_eq c c.
Proof. unfold gap_eq. auto. Qed.
Lemma gap_eq_trans c1 c2 c3 : gap_eq c1 c2 -> gap_eq c2 c3 -> gap_eq c1 c3.
Proof.
  unfold gap_eq. intros (A1 & A2 & A3 & A4) (B1 & B2 & B3 & B4). repeat split; try congruence.
  intros d H1 H2. rewrite B4 by congruence. apply A4; assumption.
Qed.

Lemma gap_eq_same c c' :
  ms_bank (c_s c') = ms_bank (c_s c) -> c_asset c' = c_asset c ->
  q_nb (c_pool c') = q_nb (c_pool c) -> q_nc (c_pool c') = q_nc (c_pool c) ->
  q_eb (c_pool c') = q_eb (c_pool c) -> q_ec (c_pool c') = q_ec (c_pool c) -> gap_eq c c'.
Proof. intros Hb Ha E1 E2 E3 E4. unfold gap_eq, Gn, Ge. rewrite Hb, Ha, E1, E2, E3, E4. auto. Qed.

Lemma set_pool_core c c' a : set_pool c = (c', Ok a) -> core_eq c c'.
Proof.
  intros H. apply set_pool_ok in H. subst. unfold core_eq, pool4_eq, mcore_eq. cbn -[get Store.set]. repeat split; try reflexivity.
  intros a' Ha. apply get_set_other. exact Ha.
Qed.
Lemma bank_send_core from to d x c c' a : bank_send from to d x c = (c', Ok a) -> core_eq c c'.
Proof. intros H. apply bank_send_ok in H. destruct H as (b & _ & ->). unfold core_eq, pool4_eq, mcore_eq. cbn. repeat split; reflexivity. Qed.

Lemma gs_on_pool a m : on_pool a m ->
  (m_cust_asset m = ROWAN /\ g_nc a m = m_cust_amt m /\ g_ec a m = 0 /\ g_nl a m = 0 /\ g_el a m = m_liab m) \/
  (m_cust_asset m <> ROWAN /\ g_nc a m = 0 /\ g_ec a m = m_cust_amt m /\ g_nl a m = m_liab m /\ g_el a m = 0).
Proof.
  intros (Ha & [(Hc & Hu)|(Hu & Hc)]); unfold g_nc, g_ec, g_nl, g_el; rewrite Hc, Hu.
  - right. rewrite Z.eqb_refl. destruct (Z.eqb_spec ROWAN a); [congruence|]. auto.
  - left. rewrite Z.eqb_refl. destruct (Z.eqb_spec ROWAN a); [congruence|]. auto.
Qed.

(* TakeOutCustody / TakeInCustody *)
Lemma custody_move_spec (out : bool) c c' u :
  (if out then take_out_custody c else take_in_custody c) = (c', Ok u) ->
  mcore_eq c c' /\ gap_eq c c' /\ c_mtp c' = c_mtp c /\ ms_bank (c_s c') = ms_bank (c_s c) /\
  get (c_asset c) (ms_pools (c_s c')) = Some (c_pool c') /\
  (forall li, on_pool (c_asset c) (c_mtp c) -> Link out li c -> Link (negb out) li c').
Proof.
  intros H.
  assert (exists p, c' = c <| c_pool := p |> <| c_s := (c_s c) <| ms_pools := set (c_asset c) p (ms_pools (c_s c)) |> |> /\
            let x := if out then m_cust_amt (c_mtp c) else - m_cust_amt (c_mtp c) in
            q_nl p = q_nl (c_pool c) /\ q_el p = q_el (c_pool c) /\
            if m_cust_asset (c_mtp c) =? ROWAN
            then q_nc p = q_nc (c_pool c) - x /\ q_nb p = q_nb (c_pool c) + x /\ q_ec p = q_ec (c_pool c) /\ q_eb p = q_eb (c_pool c)
            else q_ec p = q_ec (c_pool c) - x /\ q_eb p = q_eb (c_pool c) + x /\ q_nc p = q_nc (c_pool c) /\ q_nb p = q_nb (c_pool c))
    as (p & -> & Hnl & Hel & Hp).
  { destruct out; unfold take_out_custody, take_in_custody in H; step_getc H; step_ok H as c1 u1 E1.
    all: apply upd_pool_ok in E1; destruct E1 as (p & Hp & ->); apply set_pool_ok in H; subst c'; exists p.
    all: split; [reflexivity|]; cbv zeta.
    all: destruct (m_cust_asset (c_mtp c) =? ROWAN); repeat inv1 Hp; use_uints; subst; cbn; repeat split; lia. }
  match goal with |- mcore_eq c ?c1 /\ _ => assert (Hm : mcore_eq c c1) end.
  { unfold mcore_eq. cbn -[get Store.set]. repeat split; try reflexivity. intros a' Ha'. apply get_set_other. exact Ha'. }
  split; [exact Hm|]. split; [|split; [reflexivity|split; [reflexivity|split]]].
  - unfold gap_eq, Gn, Ge. cbn -[bal]. destruct (_ =? ROWAN); destruct Hp as (-> & -> & -> & ->); repeat split; auto; lia.
  - cbn -[get Store.set]. apply get_set_same.
  - intros li Hon (L1 & L2 & L3 & L4). unfold Link. rewrite !(others_core _ _ _ Hm). cbn -[others g_nc g_ec g_nl g_el].
    destruct (gs_on_pool _ _ Hon) as [(Hcu & G1 & G2 & G3 & G4)|(Hcu & G1 & G2 & G3 & G4)].
    + rewrite Hcu, Z.eqb_refl in Hp. destruct Hp as (P1 & _ & P3 & _). rewrite P1, P3, Hnl, Hel, L1, L2, L3, L4, G1, G2.
      destruct out; cbn [negb]; repeat split; lia.
    + destruct (Z.eqb_spec (m_cust_asset (c_mtp c)) ROWAN); [contradiction|]. destruct Hp as (P1 & _ & P3 & _).
      rewrite P1, P3, Hnl, Hel, L1, L2, L3, L4, G1, G2. destruct out; cbn [negb]; repeat split; lia.
Qed.

Lemma set_mtp_existing c c' u : set_mtp c = (c', Ok u) -> c_id c <> 0 ->
  c' = c <| c_s := put_mtp (c_s c) (c_addr c) (c_id c) (c_mtp c) |>.
Proof.
  unfold set_mtp. intros H Hid. apply modc_ok in H. destruct (Z.eqb_spec (c_id c) 0); [contradiction|]. exact H.
Qed.

Lemma find_put s addr id m addr' id' :
  find_mtp (put_mtp s addr id m) addr' id' = if (addr' =? addr) && (id' =? id) then Some m else find_mtp s addr' id'.
Proof.
  unfold find_mtp, put_mtp, mtps_of at 1. cbn -[Store.set get]. rewrite get_set.
  destruct (Z.eqb_spec addr' addr) as [->|]; cbn [andb]; [apply get_set|reflexivity].
Qed.
Lemma find_put_same s addr id m : find_mtp (put_mtp s addr id m) addr id = Some m.
Proof. rewrite find_put, !Z.eqb_refl. reflexivity. Qed.

Lemma others_put g c m :
  others g (c <| c_s := put_mtp (c_s c) (c_addr c) (c_id c) m |>) = others g c.
Proof. unfold others. cbn -[tot find_mtp put_mtp gopt]. rewrite tot_put, find_put_same. cbn [gopt]. lia. Qed.

Lemma Link_put cu li c m :
  Link cu li c -> Link cu li (c <| c_s := put_mtp (c_s c) (c_addr c) (c_id c) m |>).
Proof.
  unfold Link. intros L. rewrite !others_put. cbn -[others g_nc g_ec g_nl g_el]. exact L.
Qed.

(* any-outcome inversion (needed where an error is swallowed and the context kept) *)
Lemma bindP_any {A B} (m : PM A) (f : A -> PM B) c c' (o : Outcome B) :
  bindP m f c = (c', o) ->
  exists c1 o1, m c = (c1, o1) /\
    match o1 with
    | Ok a => f a c1 = (c', o)
    | Err e => c' = c1 /\ o = Err e
    | Panic => c' = c1 /\ o = Panic
    end.
Proof.
  unfold bindP. destruct (m c) as [c1 o1]. intros H. exists c1, o1. split; [reflexivity|].
  destruct o1; [exact H|inversion H; auto|inversion H; auto].
Qed.

Lemma bank_send_any from to d x c c' o : bank_send from to d x c = (c', o) ->
  match send (ms_bank (c_s c)) from to d x with
  | Some b => c' = c <| c_s := (c_s c) <| ms_bank := b |> |> /\ o = Ok tt
  | None => c' = c /\ o = Err E_M
  end.
Proof.
  unfold bank_send, bindP, getc, modc, failM, lift. destruct (send _ _ _ _ _); intros [= <- <-]; auto.
Qed.

Lemma destroy_mtp_ok c c' u : destroy_mtp c = (c', Ok u) ->
  c' = c <| c_s := (c_s c) <| ms_mtps := set (c_addr c) (del (c_id c) (mtps_of (c_s c) (c_addr c))) (ms_mtps (c_s c)) |>
                           <| ms_open := if ms_open (c_s c) =? 0 then 18446744073709551615 else ms_open (c_s c) - 1 |> |>.
Proof.
  unfold destroy_mtp. intros H. step_getc H. destruct (find_mtp (c_s c) (c_addr c) (c_id c)).
  - apply modc_ok in H. exact H.
  - exfalso. eapply failM_not_ok; eassumption.
Qed.
Lemma set_pool_gap c c' u : set_pool c = (c', Ok u) -> gap_eq c c'.
Proof. intros H. apply set_pool_ok in H. subst. apply gap_eq_same; reflexivity. Qed.
Lemma set_mtp_gap c c' u : set_mtp c = (c', Ok u) -> gap_eq c c'.
Proof. unfold set_mtp. intros H. apply modc_ok in H. subst. destruct (c_id c =? 0); apply gap_eq_same; reflexivity. Qed.
Lemma destroy_mtp_gap c c' u : destroy_mtp c = (c', Ok u) -> gap_eq c c'.
Proof. intros H. apply destroy_mtp_ok in H. subst c'. apply gap_eq_same; reflexivity. Qed.

Lemma send_out b to d x b' : send b CLP_MODULE to d x = Some b' -> to <> CLP_MODULE ->
  forall d', bal b' CLP_MODULE d' = bal b CLP_MODULE d' - (if d' =? d then x else 0).
Proof.
  intros Hs Hto d'. apply send_effect in Hs. destruct Hs as (_ & Hb & _). rewrite Hb, Z.eqb_refl.
  destruct (Z.eqb_spec CLP_MODULE to); [congruence|]. cbn [andb]. destruct (d' =? d); lia.
Qed.
Lemma send_in b from d x b' : send b from CLP_MODULE d x = Some b' -> from <> CLP_MODULE ->
  forall d', bal b' CLP_MODULE d' = bal b CLP_MODULE d' + (if d' =? d then x else 0).
Proof.
  intros Hs Hfrom d'. apply send_effect in Hs. destruct Hs as (_ & Hb & _). rewrite Hb, Z.eqb_refl.
  destruct (Z.eqb_spec CLP_MODULE from); [congruence|]. cbn [andb]. destruct (d' =? d); lia.
Qed.

(* sdk.Uint and sdk.Dec operations panic, they never return an error *)
Lemma ck_uint_noerr x e : ck_uint x = Err e -> False.
Proof. unfold ck_uint. destruct (fits_uint x); discriminate. Qed.
Lemma Dmul_noerr a b e : Dmul a b = Err e -> False.
Proof. unfold Dmul, ck_dec. destruct (fits_dec _); discriminate. Qed.
Lemma bind_noerr {A B} (x : Outcome A) (k : A -> Outcome B) e :
  (forall e', x = Err e' -> False) -> (forall a e', k a = Err e' -> False) -> bind x k = Err e -> False.
Proof. destruct x; cbn [bind]; [intros _ Hk; apply Hk|intros Hx _ _; exact (Hx _ eq_refl)|discriminate]. Qed.
(* goal: x = Err e -> False, x built from sdk.Uint / sdk.Dec operations by bind and if *)
Ltac prove_noerr := repeat first
  [ exact (ck_uint_noerr _ _) | exact (Dmul_noerr _ _ _) | discriminate
  | apply bind_noerr; [intro|intros ? ?]
  | match goal with |- (if ?b then _ else _) = Err _ -> False => destruct b end ].

Lemma bind_lift_any {A B} (x : Outcome A) (f : A -> PM B) c c' o : bindP (lift x) f c = (c', o) ->
  match x with Ok a => f a c = (c', o) | Err e => c' = c /\ o = Err e | Panic => c' = c /\ o = Panic end.
Proof. unfold bindP, lift. destruct x; [auto|intros [= <- <-]; auto..]. Qed.

Lemma bindP_noerr {A B} (m : PM A) (f : A -> PM B) c c' o :
  (forall c1 e, m c = (c1, Err e) -> False) -> bindP m f c = (c', o) ->
  o = Panic \/ exists c1 a, m c = (c1, Ok a) /\ f a c1 = (c', o).
Proof. unfold bindP. intros Hn. destruct (m c) as [c1 [a|e|]] eqn:E; [eauto|destruct (Hn _ _ eq_refl)|intros [= _ <-]; auto]. Qed.
Lemma lift_noerr {A} (x : Outcome A) c c1 e : (forall e, x = Err e -> False) -> lift x c = (c1, Err e) -> False.
Proof. intros Hn [= _ E]. exact (Hn _ E). Qed.
Lemma upd_mtp_noerr f c c1 e : (forall e, f (c_mtp c) = Err e -> False) -> upd_mtp f c = (c1, Err e) -> False.
Proof. unfold upd_mtp, bindP, getc, lift, modc. intros Hn. destruct (f (c_mtp c)) as [m|e0|] eqn:E; [discriminate|intros _; exact (Hn _ eq_refl)|discriminate]. Qed.
Lemma upd_pool_noerr f c c1 e : (forall e, f (c_pool c) = Err e -> False) -> upd_pool f c = (c1, Err e) -> False.
Proof. unfold upd_pool, bindP, getc, lift, modc. intros Hn. destruct (f (c_pool c)) as [m|e0|] eqn:E; [discriminate|intros _; exact (Hn _ eq_refl)|discriminate]. Qed.
(* step_noerr: step_ok for a step that cannot return an error, at any outcome of H, in a goal that asks nothing of a panic *)
Tactic Notation "step_noerr" hyp(H) "as" ident(c1) ident(a) ident(E) :=
  apply bindP_noerr in H;
  [destruct H as [->|(c1 & a & E & H)]; [exact I|]
  |intros ? ?; first [unfold set_mtp, set_pool, modc; discriminate|apply lift_noerr|apply upd_mtp_noerr|apply upd_pool_noerr]; intro; cbn beta; prove_noerr].

Lemma take_fund_le pct x : 0 <= pct <= PREC -> 0 <= x -> 0 <= dec_trunc_int (dec_mul pct (dec_of_int x)) <= x.
Proof.
  intros Hp Hx. unfold dec_of_int, dec_trunc_int. pose proof PREC_pos as HP.
  pose proof (dec_mul_bounds pct (x * PREC) ltac:(lia) ltac:(nia)) as (_ & UB).
  assert (Hdm0 : 0 <= dec_mul pct (x * PREC)) by (apply dec_mul_nonneg; nia).
  set (dm := dec_mul pct (x * PREC)) in *. rewrite Z.quot_div_nonneg by lia.
  (* 2*PREC*dm <= 2*pct*x*PREC + PREC <= 2*PREC*x*PREC + PREC, so dm <= x*PREC + 1/2 *)
  assert (pct * (x * PREC) <= PREC * (x * PREC)) by (apply Z.mul_le_mono_nonneg_r; nia).
  assert (dm <= x * PREC) by nia.
  split; [apply Z.div_pos; lia|apply Z.div_le_upper_bound; lia].
Qed.

Lemma take_fund_payment_spec amount asset pct fund c c' o :
  take_fund_payment amount asset pct fund c = (c', o) ->
  match o with
  | Ok t => 0 <= t /\ core_eq c c' /\ c_pool c' = c_pool c /\
            (fund <> CLP_MODULE -> forall d', bal (ms_bank (c_s c')) CLP_MODULE d' = bal (ms_bank (c_s c)) CLP_MODULE d' - (if d' =? asset then t else 0)) /\
            (0 <= amount -> 0 <= pct <= PREC -> t <= amount)
  | Err _ => ~ (0 <= amount /\ 0 <= pct <= PREC /\ amount <= bal (ms_bank (c_s c)) CLP_MODULE asset)
  | Panic => True
  end.
Proof.
  unfold take_fund_payment. intros H. step_noerr H as c1 t Et. apply lift_ok in Et. destruct Et as (-> & Et).
  assert (Ht : 0 <= t /\ (0 <= amount -> 0 <= pct <= PREC -> t <= amount)).
  { repeat inv1 Et. apply ck_uint_ok in Et. destruct Et as (-> & Ht0). split; [exact Ht0|]. intros Ha Hp. unfold Dmul, ck_dec in Hx. destruct (fits_dec _); [|discriminate].
    injection Hx as <-. exact (proj2 (take_fund_le pct amount Hp Ha)). }
  destruct Ht as (Ht0 & Hle). apply bindP_any in H. destruct H as (c2 & o2 & E2 & H). destruct (Z.eqb_spec t 0) as [->|Hne].
  - unfold ret in E2. injection E2 as <- <-. unfold ret in H. injection H as <- <-.
    split; [lia|]. split; [apply core_eq_refl|]. split; [reflexivity|]. split; [intros _ d'; destruct (d' =? asset); lia|exact Hle].
  - apply bank_send_any in E2. destruct (send (ms_bank (c_s c)) CLP_MODULE fund asset t) as [b|] eqn:Es; destruct E2 as (-> & ->).
    + unfold ret in H. injection H as <- <-. split; [exact Ht0|].
      split; [unfold core_eq, pool4_eq, mcore_eq; cbn; repeat split; reflexivity|]. split; [reflexivity|]. split; [|exact Hle].
      intros Hf. exact (send_out _ _ _ _ _ Es Hf).
    + destruct H as (-> & ->). intros (Ha & Hp & Hb). specialize (Hle Ha Hp). unfold send in Es.
      destruct (Z.ltb_spec t 0); [lia|]. destruct (Z.eqb_spec t 0); [contradiction|].
      destruct (Z.ltb_spec (bal (ms_bank (c_s c)) CLP_MODULE asset) t); [lia|discriminate].
Qed.

(* parts of the context no keeper function changes, except the position's custody and the stored positions *)
Definition kcore_eq (c c' : mctx) : Prop :=
  m_coll_asset (c_mtp c') = m_coll_asset (c_mtp c) /\ m_cust_asset (c_mtp c') = m_cust_asset (c_mtp c) /\
  m_liab (c_mtp c') = m_liab (c_mtp c) /\
  c_asset c' = c_asset c /\ c_addr c' = c_addr c /\ c_id c' = c_id c /\
  ms_params (c_s c') = ms_params (c_s c) /\ ms_height (c_s c') = ms_height (c_s c) /\
  ms_open (c_s c') = ms_open (c_s c) /\ ms_count (c_s c') = ms_count (c_s c) /\
  (forall a', a' <> c_asset c -> get a' (ms_pools (c_s c')) = get a' (ms_pools (c_s c))).
Lemma kcore_refl c : kcore_eq c c.
Proof. unfold kcore_eq. repeat split; reflexivity. Qed.
Lemma kcore_trans c1 c2 c3 : kcore_eq c1 c2 -> kcore_eq c2 c3 -> kcore_eq c1 c3.
Proof.
  unfold kcore_eq. intros A B. repeat split; try (etransitivity; [apply B|apply A]).
  all: try assumption. replace (c_asset c2) with (c_asset c1) by (symmetry; apply A). assumption.
Qed.
Lemma mcore_kcore c c' : mcore_eq c c' -> kcore_eq c c'.
Proof. unfold mcore_eq, kcore_eq. intros H. repeat split; apply H. Qed.

Lemma clp_swap_pos s asset sent to p r : clp_swap s asset sent to p = Ok r -> 0 < r.
Proof.
  unfold clp_swap. intros H.
  destruct (to =? ROWAN); repeat inv1 H;
  match goal with Hc : calc_swap_result _ _ _ _ _ _ = Ok ?x |- _ => destruct x as [y fee]; apply calc_swap_result_nonneg in Hc end;
  cbn [fst] in *; match goal with E : (_ =? 0) = false |- _ => apply Z.eqb_neq in E end; subst; lia.
Qed.

Lemma upd_mtp_core f c c' u :
  upd_mtp f c = (c', Ok u) ->
  (forall m m', f m = Ok m' -> m_coll_asset m' = m_coll_asset m /\ m_cust_asset m' = m_cust_asset m /\
                               m_cust_amt m' = m_cust_amt m /\ m_liab m' = m_liab m) ->
  core_eq c c'.
Proof.
  intros H Hf. apply upd_mtp_ok in H. destruct H as (m & Hm & ->). destruct (Hf _ _ Hm) as (A & B & C & D).
  unfold core_eq, pool4_eq, mcore_eq. cbn. repeat split; assumption.
Qed.

Definition quiet (c c' : mctx) : Prop :=
  core_eq c c' /\ ms_bank (c_s c') = ms_bank (c_s c) /\ q_nb (c_pool c') = q_nb (c_pool c) /\ q_eb (c_pool c') = q_eb (c_pool c).
Lemma quiet_refl c : quiet c c.
Proof. split; [apply core_eq_refl|auto]. Qed.
Lemma quiet_trans c1 c2 c3 : quiet c1 c2 -> quiet c2 c3 -> quiet c1 c3.
Proof. intros (A1 & A2 & A3 & A4) (B1 & B2 & B3 & B4). split; [eapply core_eq_trans; eassumption|]. repeat split; congruence. Qed.
Lemma quiet_gap c c' : quiet c c' -> gap_eq c c'.
Proof. intros (Hc & Hbank & Hnb & Heb). apply gap_eq_same; try assumption; apply Hc. Qed.
Lemma quiet_mtp c m :
  m_coll_asset m = m_coll_asset (c_mtp c) -> m_cust_asset m = m_cust_asset (c_mtp c) ->
  m_cust_amt m = m_cust_amt (c_mtp c) -> m_liab m = m_liab (c_mtp c) -> quiet c (c <| c_mtp := m |>).
Proof. intros. unfold quiet, core_eq, pool4_eq, mcore_eq. cbn. repeat split; assumption || reflexivity. Qed.
Lemma set_pool_quiet c c' a : set_pool c = (c', Ok a) -> quiet c c'.
Proof. intros H. split; [exact (set_pool_core _ _ _ H)|]. apply set_pool_ok in H. subst. auto. Qed.

Definition Keeps (li : bool) (c c' : mctx) : Prop :=
  Link true li c' /\ kcore_eq c c' /\ m_cust_amt (c_mtp c') <= m_cust_amt (c_mtp c) /\ (forall g, others g c' = others g c).

Lemma Keeps_refl li c : Link true li c -> Keeps li c c.
Proof. intros L. split; [exact L|]. split; [apply kcore_refl|]. split; [lia|reflexivity]. Qed.

Definition KeepsGap (li : bool) (c c' : mctx) : Prop :=
  Keeps li c c' /\ (mp_incr_fund (ms_params (c_s c)) <> CLP_MODULE -> gap_eq c c').
Lemma KeepsGap_refl li c : Link true li c -> KeepsGap li c c.
Proof. intros L. split; [exact (Keeps_refl _ _ L)|intros _; apply gap_eq_refl]. Qed.
Lemma KeepsGap_quiet_l li c c1 c2 : quiet c c1 -> KeepsGap li c1 c2 -> KeepsGap li c c2.
Proof.
  intros Hq ((L & K & B & O) & HG). pose proof Hq as ((_ & Hm) & _). split.
  - split; [exact L|]. split; [exact (kcore_trans _ _ _ (mcore_kcore _ _ Hm) K)|].
    split; [replace (m_cust_amt (c_mtp c)) with (m_cust_amt (c_mtp c1)) by apply Hm; exact B|].
    intros g. rewrite O. exact (others_core g _ _ Hm).
  - intros Hf. eapply gap_eq_trans; [exact (quiet_gap _ _ Hq)|]. apply HG.
    replace (ms_params (c_s c1)) with (ms_params (c_s c)) by (symmetry; apply Hm). exact Hf.
Qed.
Lemma KeepsGap_quiet_r li c c1 c2 : KeepsGap li c c1 -> quiet c1 c2 -> KeepsGap li c c2.
Proof.
  intros ((L & K & B & O) & HG) Hq. pose proof Hq as (Hc & _). pose proof Hc as (_ & Hm). split.
  - split; [exact (Link_core _ _ _ _ Hc L)|]. split; [exact (kcore_trans _ _ _ K (mcore_kcore _ _ Hm))|].
    split; [replace (m_cust_amt (c_mtp c2)) with (m_cust_amt (c_mtp c1)) by (symmetry; apply Hm); exact B|].
    intros g. rewrite (others_core g _ _ Hm). apply O.
  - intros Hf. exact (gap_eq_trans _ _ _ (HG Hf) (quiet_gap _ _ Hq)).
Qed.
Lemma KeepsGap_set_mtp li c c1 c2 u : KeepsGap li c c1 -> set_mtp c1 = (c2, Ok u) -> c_id c <> 0 -> KeepsGap li c c2.
Proof.
  intros ((L & K & B & O) & HG) H Hid. pose proof (set_mtp_gap _ _ _ H) as G.
  assert (Hid1 : c_id c1 <> 0) by (replace (c_id c1) with (c_id c) by (symmetry; apply K); exact Hid).
  apply set_mtp_existing in H; [|exact Hid1]. subst c2.
  split; [|intros Hf; exact (gap_eq_trans _ _ _ (HG Hf) G)].
  split; [apply Link_put; exact L|]. split; [eapply kcore_trans; [exact K|unfold kcore_eq; cbn; repeat split; reflexivity]|].
  split; [exact B|]. intros g. rewrite others_put. apply O.
Qed.

(* an interest payment of x, t of it to the fund, on either custody side *)
Lemma custody_paid li c cB x t :
  on_pool (c_asset c) (c_mtp c) -> Link true li c -> kcore_eq c cB -> ms_mtps (c_s cB) = ms_mtps (c_s c) ->
  0 <= x -> m_cust_amt (c_mtp cB) = m_cust_amt (c_mtp c) - x ->
  (q_nl (c_pool cB) = q_nl (c_pool c) /\ q_el (c_pool cB) = q_el (c_pool c) /\
   if m_cust_asset (c_mtp c) =? ROWAN
   then q_nc (c_pool cB) = q_nc (c_pool c) - x /\ q_nb (c_pool cB) = q_nb (c_pool c) + (x - t) /\
        q_ec (c_pool cB) = q_ec (c_pool c) /\ q_eb (c_pool cB) = q_eb (c_pool c)
   else q_ec (c_pool cB) = q_ec (c_pool c) - x /\ q_eb (c_pool cB) = q_eb (c_pool c) + (x - t) /\
        q_nc (c_pool cB) = q_nc (c_pool c) /\ q_nb (c_pool cB) = q_nb (c_pool c)) ->
  (mp_incr_fund (ms_params (c_s c)) <> CLP_MODULE -> forall d,
     bal (ms_bank (c_s cB)) CLP_MODULE d = bal (ms_bank (c_s c)) CLP_MODULE d - (if d =? m_cust_asset (c_mtp c) then t else 0)) ->
  KeepsGap li c cB.
Proof.
  intros Hon (L1 & L2 & L3 & L4) K Hm Hx Hcu (Hnl & Hel & Hp) Hb.
  pose proof K as (A1 & A2 & A3 & Ea & Eaddr & Eid & _).
  assert (Ho : forall g, others g cB = others g c).
  { intros g. unfold others. rewrite (tot_core g _ _ Hm), (find_core _ _ _ _ Hm), Eaddr, Eid. reflexivity. }
  assert (Hane : c_asset c <> ROWAN) by apply Hon.
  split; [split; [|split; [exact K|split; [lia|exact Ho]]]|].
  - unfold Link. rewrite !Ho, Ea. unfold g_nc, g_ec, g_nl, g_el in L1, L2, L3, L4 |- *. rewrite A1, A2, A3, Hcu.
    destruct Hon as (_ & [(Hc1 & Hc2)|(Hc1 & Hc2)]); rewrite Hc1, Hc2 in *.
    + destruct (Z.eqb_spec (c_asset c) ROWAN); [contradiction|]. destruct Hp as (B1 & _ & B3 & _).
      destruct (Z.eqb_spec ROWAN (c_asset c)); [congruence|]. rewrite Z.eqb_refl in *. repeat split; lia.
    + rewrite Z.eqb_refl in Hp. destruct Hp as (B1 & _ & B3 & _).
      destruct (Z.eqb_spec ROWAN (c_asset c)); [congruence|]. rewrite Z.eqb_refl in *. repeat split; lia.
  - intros Hf. specialize (Hb Hf). unfold gap_eq, Gn, Ge. rewrite Ea, !Hb.
    destruct Hon as (_ & [(Hc1 & Hc2)|(Hc1 & Hc2)]).
    + rewrite Hc2 in *. destruct (Z.eqb_spec (c_asset c) ROWAN); [contradiction|]. destruct Hp as (B1 & B2 & B3 & B4).
      destruct (Z.eqb_spec ROWAN (c_asset c)); [congruence|]. rewrite Z.eqb_refl.
      split; [lia|]. split; [lia|]. split; [reflexivity|]. intros d Hd1 Hd2. rewrite Hb. destruct (Z.eqb_spec d (c_asset c)); [congruence|]. lia.
    + rewrite Hc1 in *. rewrite Z.eqb_refl in Hp. destruct Hp as (B1 & B2 & B3 & B4).
      destruct (Z.eqb_spec (c_asset c) ROWAN); [contradiction|]. rewrite Z.eqb_refl.
      split; [lia|]. split; [lia|]. split; [reflexivity|]. intros d Hd1 Hd2. rewrite Hb. destruct (Z.eqb_spec d ROWAN); [congruence|]. lia.
Qed.

Definition interest_hyps (c : mctx) : Prop :=
  on_pool (c_asset c) (c_mtp c) /\ c_id c <> 0 /\
  0 <= mp_incr_pct (ms_params (c_s c)) <= PREC /\
  0 <= m_cust_amt (c_mtp c) <= bal (ms_bank (c_s c)) CLP_MODULE (m_cust_asset (c_mtp c)).

Lemma incremental_spec i c c' o li :
  incremental_interest_payment i c = (c', o) -> interest_hyps c -> Link true li c ->
  match o with Panic => True | _ => KeepsGap li c c' end.
Proof.
  unfold incremental_interest_payment. intros H (Hon & Hid & Hpct & Hfunds) L. step_getc H.
  assert (Hq : forall c1, quiet c c1 -> KeepsGap li c c1) by (intros c1; apply KeepsGap_quiet_r, KeepsGap_refl, L).
  step_noerr H as c1 interest Ei. apply lift_ok in Ei. destruct Ei as (-> & Ei).
  apply bind_lift_any in H.
  destruct (clp_swap (c_s c) (c_asset c) interest (m_cust_asset (c_mtp c)) (c_pool c)) as [ipc|e|] eqn:Es;
    [|destruct H as (-> & ->); exact (Hq c (quiet_refl c))|destruct H as (_ & ->); exact I].
  apply clp_swap_pos in Es.
  step_noerr H as c3 u3 E3. apply upd_mtp_ok in E3. destruct E3 as (m3 & Em3 & ->). injection Em3 as <-.
  set (cA := c <| c_mtp := (c_mtp c) <| m_iunpaid := 0 |> |>) in *.
  assert (HcA : quiet c cA) by (apply quiet_mtp; reflexivity).
  apply bindP_any in H. destruct H as (c4 & o4 & E4 & H).
  assert (Hc4 : match o4 with Ok pr => quiet c c4 /\ 0 <= snd pr <= m_cust_amt (c_mtp c) | Err _ => quiet c c4 | Panic => True end).
  { destruct (m_cust_amt (c_mtp c) <? ipc) eqn:Elt.
    - apply bind_lift_any in E4.
      match type of E4 with match ?x with _ => _ end => destruct x as [cac|e|] end; [|destruct E4 as (-> & ->); exact HcA|destruct E4 as (_ & ->); exact I].
      step_noerr E4 as c6 un Eu. apply lift_ok in Eu. destruct Eu as (-> & _).
      step_noerr E4 as c7 u7 E7. apply upd_mtp_ok in E7. destruct E7 as (m7 & Em7 & ->). injection Em7 as <-.
      unfold ret in E4. injection E4 as <- <-. cbn [snd]. split; [|lia].
      eapply quiet_trans; [exact HcA|apply quiet_mtp; reflexivity].
    - unfold ret in E4. injection E4 as <- <-. cbn [snd]. apply Z.ltb_ge in Elt. split; [exact HcA|lia]. }
  destruct o4 as [[interest' ipc']|e|]; [|destruct H as (-> & ->); exact (Hq c4 Hc4)|destruct H as (_ & ->); exact I].
  destruct Hc4 as (Hc4 & Hipc). cbn [snd] in Hipc.
  pose proof Hc4 as (((Pnc & Pec & Pnl & Pel) & (Mcoll & Mcust & Mamt & Mliab & Kasset & Kaddr & Kid & Smtps & Sopen & Scount & Sparams & Sheight & Spools))
                     & Hbank & Pnb & Peb).
  step_noerr H as c5 u5 E5. apply upd_mtp_ok in E5. destruct E5 as (m5 & Em5 & ->). repeat inv1 Em5. use_uints. subst.
  apply bindP_any in H. destruct H as (c6 & o6 & E6 & H). apply take_fund_payment_spec in E6.
  destruct o6 as [take|e|]; [|exfalso; apply E6; cbn -[bal]; rewrite Hbank; (split; [lia|split; [exact Hpct|lia]])|destruct H as (_ & ->); exact I].
  destruct E6 as (Ht0 & Hc6 & Hp6 & Hb6 & Htake). specialize (Htake ltac:(lia) Hpct).
  step_noerr H as c7 actual Eact. apply lift_ok in Eact. destruct Eact as (-> & Eact). apply uint_sub_ok in Eact. destruct Eact as (-> & Hact0).
  step_noerr H as c8 u8 E8. apply upd_pool_ok in E8. destruct E8 as (p8 & Ep8 & ->).
  step_noerr H as c9 u9 E9. step_noerr H as c10 u10 E10.
  unfold ret in H. injection H as <- <-.
  apply (KeepsGap_quiet_r li c c9 c10); [|exact (set_pool_quiet _ _ _ E10)]. eapply KeepsGap_set_mtp; [|exact E9|exact Hid].
  pose proof Hc6 as ((Qnc & Qec & Qnl & Qel) & (Ncoll & Ncust & Namt & Nliab & Jasset & Jaddr & Jid & Tmtps & Topen & Tcount & Tparams & Theight & Tpools)).
  cbn -[bal get] in Qnc, Qec, Qnl, Qel, Ncoll, Ncust, Namt, Nliab, Jasset, Jaddr, Jid, Tmtps, Topen, Tcount, Tparams, Theight, Tpools, Hp6, Hb6.
  apply (custody_paid li c (c6 <| c_pool := p8 |>) ipc' take Hon L).
  - unfold kcore_eq. cbn -[get]. repeat split; try congruence. intros a' Ha. rewrite Tpools by congruence. apply Spools. exact Ha.
  - cbn. congruence.
  - lia.
  - cbn. rewrite Namt. cbn. rewrite Mamt. reflexivity.
  - rewrite Hp6 in Ep8. cbn in Ep8 |- *. destruct (m_cust_asset (c_mtp c) =? ROWAN); repeat inv1 Ep8; use_uints; subst; cbn; repeat split; lia.
  - intros Hf d. cbn -[bal]. rewrite (Hb6 Hf), Hbank. reflexivity.
Qed.

Lemma interest_hyps_core c c' : core_eq c c' -> ms_bank (c_s c') = ms_bank (c_s c) -> interest_hyps c -> interest_hyps c'.
Proof.
  intros (_ & (Hcoll & Hcust & Hamt & _ & Hasset & _ & Hid' & _ & _ & _ & Hparams & _)) Hb (Hon & Hid & Hp & Hf).
  unfold interest_hyps, on_pool in *. rewrite Hcoll, Hcust, Hamt, Hasset, Hid', Hparams, Hb. auto.
Qed.

Lemma handle_interest_spec i c c' o li :
  handle_interest_payment i c = (c', o) -> interest_hyps c -> Link true li c ->
  match o with Panic => True | Err _ => False | Ok _ => KeepsGap li c c' end.
Proof.
  unfold handle_interest_payment. intros H Hh L. step_getc H.
  destruct (mp_incr (ms_params (c_s c))).
  - destruct (incremental_interest_payment i c) as [c1 o1] eqn:E.
    pose proof (incremental_spec _ _ _ _ li E Hh L) as HI. destruct o1; injection H as <- <-; exact HI.
  - step_noerr H as c1 u1 E1. apply upd_mtp_ok in E1. destruct E1 as (m1 & Em & ->). injection Em as <-.
    unfold ret in H. injection H as <- <-. apply (KeepsGap_quiet_r li c c); [exact (KeepsGap_refl _ _ L)|apply quiet_mtp; reflexivity].
Qed.

Lemma add_block_interest_quiet fin c c' u : add_block_interest fin c = (c', Ok u) -> quiet c c'.
Proof.
  unfold add_block_interest. intros H. step_getc H. apply upd_pool_ok in H. destruct H as (p & Hp & ->).
  destruct (m_coll_asset (c_mtp c) =? ROWAN); repeat inv1 Hp; subst; unfold quiet, core_eq, pool4_eq, mcore_eq; cbn; repeat split; reflexivity.
Qed.

Lemma set_mtp_stored c c' u : set_mtp c = (c', Ok u) -> find_mtp (c_s c') (c_addr c') (c_id c') = Some (c_mtp c').
Proof.
  unfold set_mtp. intros H. apply modc_ok in H. subst. destruct (c_id c =? 0); cbn -[find_mtp put_mtp]; apply find_put_same.
Qed.

Lemma process_interest_spec c c' u :
  process_interest c = (c', Ok u) -> interest_hyps c -> Link true true c ->
  KeepsGap true c c' /\ find_mtp (c_s c') (c_addr c') (c_id c') = Some (c_mtp c').
Proof.
  unfold process_interest. intros H Hh L. step_getc H.
  apply bind_lift_ok in H. destruct H as (h & Eh & H).
  step_ok H as c2 u2 E2. apply upd_mtp_ok in E2. destruct E2 as (m2 & Em2 & ->). injection Em2 as <-.
  set (cA := c <| c_mtp := (c_mtp c) <| m_health := h |> |>) in *.
  assert (HcA : quiet c cA) by (apply quiet_mtp; reflexivity).
  step_getc H. apply bind_lift_ok in H. destruct H as (i & Ei & H).
  step_ok H as c4 fin E4.
  pose proof (handle_interest_spec _ _ _ _ true E4 (interest_hyps_core _ _ (proj1 HcA) eq_refl Hh) (Link_core _ _ _ _ (proj1 HcA) L)) as HK.
  cbn beta iota in HK. step_ok H as c5 u5 E5. apply add_block_interest_quiet in E5.
  split; [|exact (set_mtp_stored _ _ _ H)]. eapply KeepsGap_set_mtp; [|exact H|apply Hh].
  exact (KeepsGap_quiet_l _ _ _ _ HcA (KeepsGap_quiet_r _ _ _ _ HK E5)).
Qed.

Lemma mid_epoch_spec c c' u li :
  mid_epoch_interest c = (c', Ok u) -> (epoch_position (c_s c) <> 0 -> interest_hyps c) -> Link true li c -> KeepsGap li c c'.
Proof.
  unfold mid_epoch_interest. intros H Hh0 L. step_getc H.
  destruct (Z.ltb_spec 0 (epoch_position (c_s c))) as [Hpos|Hpos].
  - assert (Hh : interest_hyps c) by (apply Hh0; lia). apply bind_lift_ok in H. destruct H as (i & Ei & H).
    step_ok H as c2 fin E2. pose proof (handle_interest_spec _ _ _ _ li E2 Hh L) as HK. cbn beta iota in HK.
    step_ok H as c3 u3 E3. apply add_block_interest_quiet in E3.
    step_getc H. apply bind_lift_ok in H. destruct H as (h & Eh & H).
    apply upd_mtp_ok in H. destruct H as (m & Em & ->). injection Em as <-.
    apply (KeepsGap_quiet_r li c c3); [exact (KeepsGap_quiet_r _ _ _ _ HK E3)|apply quiet_mtp; reflexivity].
  - apply ret_ok in H. destruct H as (-> & _). exact (KeepsGap_refl _ _ L).
Qed.

(* what a completed close leaves behind, relative to the context it started from *)
Definition Closed (c : mctx) (s' : mstate) : Prop :=
  let a := c_asset c in
  (forall g, tot g s' = others g c) /\
  (exists P', get a (ms_pools s') = Some P' /\ q_nc P' = others (g_nc a) c /\ q_ec P' = others (g_ec a) c /\
              q_nl P' = others (g_nl a) c /\ q_el P' = others (g_el a) c) /\
  (forall a', a' <> a -> get a' (ms_pools s') = get a' (ms_pools (c_s c))) /\
  ms_open s' = (if ms_open (c_s c) =? 0 then 18446744073709551615 else ms_open (c_s c) - 1) /\
  ms_count s' = ms_count (c_s c).

Definition funds_not_module (s : mstate) : Prop :=
  mp_incr_fund (ms_params s) <> CLP_MODULE /\ mp_fc_fund (ms_params s) <> CLP_MODULE.

Definition ClosedG (c c' : mctx) : Prop :=
  Closed c (c_s c') /\ get (c_asset c) (ms_pools (c_s c')) = Some (c_pool c') /\
  (funds_not_module (c_s c) -> c_addr c <> CLP_MODULE -> gap_eq c c').
Lemma ClosedG_after c c1 c' :
  kcore_eq c c1 -> (forall g, others g c1 = others g c) -> (funds_not_module (c_s c) -> gap_eq c c1) -> ClosedG c1 c' -> ClosedG c c'.
Proof.
  intros (_&_&_&Ka&Kaddr&_&Kp&_&Ko&Kc&Kpools) O G1 ((C1 & C2 & C3 & C4 & C5) & Hmem & G2). unfold ClosedG, Closed, funds_not_module in *. rewrite Ka, Kp, Kaddr in *.
  split; [|split; [exact Hmem|intros Hf Ho; exact (gap_eq_trans _ _ _ (G1 Hf) (G2 Hf Ho))]].
  split; [intros g; rewrite C1; apply O|].
  split; [destruct C2 as (P' & G & Q1 & Q2 & Q3 & Q4); exists P'; rewrite <- !O; auto|].
  split; [intros a' Ha'; rewrite C3 by exact Ha'; apply Kpools; exact Ha'|].
  split; [rewrite C4, Ko; reflexivity|rewrite C5; exact Kc].
Qed.
Lemma on_pool_kcore c c' : kcore_eq c c' -> on_pool (c_asset c) (c_mtp c) -> on_pool (c_asset c') (c_mtp c').
Proof. intros (Hcoll & Hcust & _ & Hasset & _) H. unfold on_pool in *. rewrite Hcoll, Hcust, Hasset. exact H. Qed.

(* the payout of Repay: to the fund if asked, the rest to the owner *)
Definition repay_payout (ret_amt : Z) (tf : bool) (coll pct fund addr : Z) : PM unit :=
  (if ret_amt =? 0 then ret tt else
     actual <-- (if tf then take <-- take_fund_payment ret_amt coll pct fund ;; lift (uint_sub ret_amt take) else ret ret_amt) ;;
     if actual =? 0 then ret tt else bank_send CLP_MODULE addr coll actual)%pm.
Lemma repay_payout_spec ret_amt tf coll pct fund addr c c' u :
  repay_payout ret_amt tf coll pct fund addr c = (c', Ok u) ->
  core_eq c c' /\ c_pool c' = c_pool c /\
  (fund <> CLP_MODULE -> addr <> CLP_MODULE -> forall d,
     bal (ms_bank (c_s c')) CLP_MODULE d = bal (ms_bank (c_s c)) CLP_MODULE d - (if d =? coll then ret_amt else 0)).
Proof.
  unfold repay_payout. intros H. destruct (Z.eqb_spec ret_amt 0) as [->|Hne].
  - apply ret_ok in H. destruct H as (-> & _). split; [apply core_eq_refl|]. split; [reflexivity|]. intros _ _ d. destruct (d =? coll); lia.
  - step_ok H as c1 actual E1.
    assert (H1 : exists take, actual = ret_amt - take /\ core_eq c c1 /\ c_pool c1 = c_pool c /\
              (fund <> CLP_MODULE -> forall d, bal (ms_bank (c_s c1)) CLP_MODULE d = bal (ms_bank (c_s c)) CLP_MODULE d - (if d =? coll then take else 0))).
    { destruct tf.
      - step_ok E1 as c2 take E2. apply take_fund_payment_spec in E2. destruct E2 as (_ & Hc2 & Hp2 & Hb2 & _).
        apply lift_ok in E1. destruct E1 as (-> & Eact). apply uint_sub_ok in Eact. destruct Eact as (-> & _). exists take. auto.
      - apply ret_ok in E1. destruct E1 as (-> & ->). exists 0. split; [lia|]. split; [apply core_eq_refl|]. split; [reflexivity|].
        intros _ d. destruct (d =? coll); lia. }
    destruct H1 as (take & -> & Hc1 & Hp1 & Hb1).
    destruct (Z.eqb_spec (ret_amt - take) 0) as [E0|Hne2].
    + apply ret_ok in H. destruct H as (-> & _). split; [exact Hc1|]. split; [exact Hp1|].
      intros Hf _ d. rewrite (Hb1 Hf). destruct (d =? coll); lia.
    + split; [eapply core_eq_trans; [exact Hc1|eapply bank_send_core; eassumption]|].
      apply bank_send_ok in H. destruct H as (b & Hs & ->). split; [exact Hp1|].
      intros Hf Ho d. cbn -[bal]. rewrite (send_out _ _ _ _ _ Hs Ho), (Hb1 Hf). destruct (d =? coll); lia.
Qed.

Lemma repay_spec r tf c c' u :
  repay r tf c = (c', Ok u) -> on_pool (c_asset c) (c_mtp c) -> Link false true c -> ClosedG c c'.
Proof.
  unfold repay. intros H Hon L. step_getc H.
  apply bind_lift_ok in H. destruct H as (h & _ & H).
  step_ok H as c2 u2 E2. apply upd_mtp_ok in E2. destruct E2 as (m2 & Em2 & ->). injection Em2 as <-.
  apply bind_lift_ok in H. destruct H as (owe & _ & H).
  apply bind_lift_ok in H. destruct H as (tr & Etr & H). destruct tr as [[ret_amt debtP] debtI].
  step_ok H as c5 u5 E5.
  destruct (repay_payout_spec ret_amt tf (m_coll_asset (c_mtp c)) (mp_fc_pct (ms_params (c_s c))) (mp_fc_fund (ms_params (c_s c))) (c_addr c) _ _ _ E5)
    as (Hc5 & Hp5 & Hb5). clear E5 Etr.
  assert (Hc : core_eq c c5) by (eapply core_eq_trans; [apply quiet_mtp; reflexivity|exact Hc5]).
  step_ok H as c6 u6 E6. apply upd_pool_ok in E6. destruct E6 as (p & Hp & ->).
  step_ok H as c7 u7 E7. pose proof (destroy_mtp_gap _ _ _ E7) as G7. apply destroy_mtp_ok in E7. subst c7.
  pose proof (set_pool_gap _ _ _ H) as G8. apply set_pool_ok in H. subst c'.
  pose proof Hc as (_ & Hm). pose proof Hm as (_ & _ & _ & _ & Hasset & _ & _ & _ & Hopen & Hcount & _ & _ & Hpools).
  assert (Ho : forall g, others g c5 = others g c) by (intros g; apply others_core; exact Hm).
  assert (Hpf : q_nc p = q_nc (c_pool c) /\ q_ec p = q_ec (c_pool c) /\
                if m_coll_asset (c_mtp c) =? ROWAN
                then q_nb p = q_nb (c_pool c) - ret_amt /\ q_nl p = q_nl (c_pool c) - m_liab (c_mtp c) /\ q_eb p = q_eb (c_pool c) /\ q_el p = q_el (c_pool c)
                else q_eb p = q_eb (c_pool c) - ret_amt /\ q_el p = q_el (c_pool c) - m_liab (c_mtp c) /\ q_nb p = q_nb (c_pool c) /\ q_nl p = q_nl (c_pool c)).
  { rewrite Hp5 in Hp. cbn in Hp. destruct (m_coll_asset (c_mtp c) =? ROWAN); repeat inv1 Hp; use_uints; subst; cbn; repeat split; lia. }
  clear Hp. destruct Hpf as (Hnc & Hec & Hpf).
  assert (Hane : c_asset c <> ROWAN) by apply Hon.
  assert (Ear : (ROWAN =? c_asset c) = false) by (apply Z.eqb_neq; congruence).
  assert (Era : (c_asset c =? ROWAN) = false) by (apply Z.eqb_neq; congruence).
  split; [|split; [cbn -[get Store.set]; rewrite Hasset; apply get_set_same|]].
  - destruct L as (L1 & L2 & L3 & L4). unfold g_nl at 2 in L3. unfold g_el at 2 in L4.
    unfold Closed. cbn -[tot get Store.set others g_nc g_ec g_nl g_el del].
    split; [intros g; rewrite <- Ho; unfold others; rewrite <- (tot_del g (c_s c5) (c_addr c5) (c_id c5)); unfold tot; cbn; reflexivity|].
    split.
    { exists p. rewrite Hasset. split; [apply get_set_same|].
      destruct Hon as (_ & [(Hc1 & Hc2)|(Hc1 & Hc2)]); rewrite Hc1, Hc2, ?Z.eqb_refl, ?Ear, ?Era in *;
        destruct Hpf as (_ & B2 & _ & B4); repeat split; lia. }
    split; [intros a' Ha'; rewrite Hasset; rewrite get_set_other by exact Ha'; cbn -[get]; apply Hpools; exact Ha'|].
    split; [rewrite Hopen; reflexivity|exact Hcount].
  - intros (_ & Hf) Howner. specialize (Hb5 Hf Howner). cbn -[bal] in Hb5. eapply gap_eq_trans; [|eapply gap_eq_trans; [exact G7|exact G8]].
    unfold gap_eq, Gn, Ge. cbn -[bal Z.eqb]. rewrite Hasset, !Hb5.
    destruct Hon as (_ & [(Hc1 & _)|(_ & Hc1)]); rewrite Hc1, ?Z.eqb_refl, ?Ear, ?Era in *; destruct Hpf as (B1 & _ & B3 & _).
    + split; [lia|]. split; [lia|]. split; [reflexivity|]. intros d Hd1 Hd2. rewrite Hb5. destruct (Z.eqb_spec d ROWAN); [congruence|]. lia.
    + split; [lia|]. split; [lia|]. split; [reflexivity|]. intros d Hd1 Hd2. rewrite Hb5. destruct (Z.eqb_spec d (c_asset c)); [congruence|]. lia.
Qed.

(* TakeOutCustody, price the custody, Repay: the common tail of CloseLong and ForceCloseLong *)
Definition closing_tail {A} (tf : bool) (k : Z -> A) : PM A :=
  (take_out_custody ;;; c1 <-- getc ;;
   r <-- lift (clp_swap (c_s c1) (c_asset c1) (m_cust_amt (c_mtp c1)) (m_coll_asset (c_mtp c1)) (c_pool c1)) ;;
   repay r tf ;;; ret (k r))%pm.
Lemma closing_tail_spec {A} tf (k : Z -> A) c c' x :
  closing_tail tf k c = (c', Ok x) -> on_pool (c_asset c) (c_mtp c) -> Link true true c -> (exists r, x = k r) /\ ClosedG c c'.
Proof.
  unfold closing_tail. intros H Hon L. step_ok H as c1 u1 E1.
  destruct (custody_move_spec true _ _ _ E1) as (Hm1 & G1 & _ & _ & _ & L1). specialize (L1 true Hon L). cbn [negb] in L1.
  step_getc H. apply bind_lift_ok in H. destruct H as (r & _ & H).
  step_ok H as c3 u3 E3. apply ret_ok in H. destruct H as (-> & ->). split; [eauto|].
  apply (ClosedG_after c c1); [exact (mcore_kcore _ _ Hm1)|intros g; exact (others_core g _ _ Hm1)|intros _; exact G1|].
  exact (repay_spec _ _ _ _ _ E3 (on_pool_kcore _ _ (mcore_kcore _ _ Hm1) Hon) L1).
Qed.

Lemma keeps_on_pool li c c1 : Keeps li c c1 -> on_pool (c_asset c) (c_mtp c) -> on_pool (c_asset c1) (c_mtp c1).
Proof. intros (_ & K & _). exact (on_pool_kcore _ _ K). Qed.

Lemma keeps_find li c c1 : Keeps li c c1 -> c_addr c1 = c_addr c /\ c_id c1 = c_id c.
Proof. intros (_ & K & _). split; apply K. Qed.

Lemma close_long_spec c c' r :
  close_long c = (c', Ok r) -> on_pool (c_asset c) (c_mtp c) -> (epoch_position (c_s c) <> 0 -> interest_hyps c) ->
  Link true true c -> ClosedG c c'.
Proof.
  unfold close_long. intros H Hon Hh L. step_ok H as c1 u1 E1.
  destruct (mid_epoch_spec _ _ _ true E1 Hh L) as (HK & G1). pose proof HK as (L1 & K & _ & O).
  apply (ClosedG_after c c1 c' K O (fun Hf => G1 (proj1 Hf))).
  exact (proj2 (closing_tail_spec false (fun r => r) c1 c' r H (keeps_on_pool _ _ _ HK Hon) L1)).
Qed.

(* ForceCloseLong: also returns the health the decision was taken on *)
Lemma force_close_long_spec adm tf c c' r :
  force_close_long adm tf c = (c', Ok r) -> on_pool (c_asset c) (c_mtp c) -> (epoch_position (c_s c) <> 0 -> interest_hyps c) ->
  Link true true c -> (adm = false -> snd r <= mp_safety (ms_params (c_s c))) /\ ClosedG c c'.
Proof.
  unfold force_close_long. intros H Hon Hh L. step_ok H as c1 u1 E1.
  destruct (mid_epoch_spec _ _ _ true E1 Hh L) as (HK & G1). pose proof HK as (L1 & K & _ & O).
  step_getc H. destruct (negb adm && (mp_safety (ms_params (c_s c1)) <? m_health (c_mtp c1))) eqn:Eg; [discriminate|].
  destruct (closing_tail_spec tf (fun r => (r, m_health (c_mtp c1))) c1 c' r H (keeps_on_pool _ _ _ HK Hon) L1) as ((r0 & ->) & HT).
  split; [|exact (ClosedG_after c c1 c' K O (fun Hf => G1 (proj1 Hf)) HT)].
  intros ->. cbn [negb andb] in Eg. apply Z.ltb_ge in Eg. assert (Hparams : ms_params (c_s c1) = ms_params (c_s c)) by apply K. rewrite <- Hparams. exact Eg.
Qed.

Definition SumInv (s : mstate) : Prop :=
  (forall a p, get a (ms_pools s) = Some p -> a <> ROWAN -> pool_agrees s a p) /\ ms_open s = tot g_one s.

Lemma others_mk g s p m a addr id : find_mtp s addr id = Some m -> others g (mkCtx s p m a addr id) = tot g s - g m.
Proof. intros H. unfold others. cbn. rewrite H. reflexivity. Qed.

Lemma link_of_agrees s a p m addr id :
  pool_agrees s a p -> find_mtp s addr id = Some m -> Link true true (mkCtx s p m a addr id).
Proof.
  intros (A1 & A2 & A3 & A4) Hf. unfold Link. cbn [c_asset c_pool c_mtp]. rewrite !(others_mk _ _ _ _ _ _ _ Hf). repeat split; lia.
Qed.

Lemma g_other_zero a a' m : on_pool a m -> a' <> a -> a' <> ROWAN ->
  g_nc a' m = 0 /\ g_ec a' m = 0 /\ g_nl a' m = 0 /\ g_el a' m = 0.
Proof.
  intros (Ha & [(H1 & H2)|(H1 & H2)]) Hne Hr; unfold g_nc, g_ec, g_nl, g_el; rewrite H1, H2;
  destruct (Z.eqb_spec ROWAN a'); try congruence; destruct (Z.eqb_spec a a'); try congruence; auto.
Qed.

(* the begin blocker works on one position at a time, the pool shared in memory. Loop invariant: the in-memory pool of
   asset a agrees with the stored positions, the stored pools of the other assets agree, the counter equals the number of
   positions *)
Definition LoopInv (a : Z) (s : mstate) (p : mpool) : Prop :=
  pool_agrees s a p /\
  (forall a' p', a' <> a -> get a' (ms_pools s) = Some p' -> a' <> ROWAN -> pool_agrees s a' p') /\
  ms_open s = tot g_one s.

Lemma pool_agrees_fields s s' a p p' :
  ms_mtps s' = ms_mtps s -> q_nc p' = q_nc p -> q_ec p' = q_ec p -> q_nl p' = q_nl p -> q_el p' = q_el p ->
  pool_agrees s a p -> pool_agrees s' a p'.
Proof.
  intros Hm E1 E2 E3 E4 (A1 & A2 & A3 & A4). unfold pool_agrees. rewrite !(tot_core _ _ _ Hm), E1, E2, E3, E4. auto.
Qed.
Lemma LoopInv_frame a st st' p p' :
  ms_mtps st' = ms_mtps st -> ms_open st' = ms_open st ->
  (forall a', a' <> a -> get a' (ms_pools st') = get a' (ms_pools st)) ->
  q_nc p' = q_nc p -> q_ec p' = q_ec p -> q_nl p' = q_nl p -> q_el p' = q_el p ->
  LoopInv a st p -> LoopInv a st' p'.
Proof.
  intros Hm Ho Hp E1 E2 E3 E4 (HA & HB & HO). split; [exact (pool_agrees_fields _ _ _ _ _ Hm E1 E2 E3 E4 HA)|]. split.
  - intros a' q Hne Hg Hr. rewrite Hp in Hg by exact Hne. eapply pool_agrees_fields; [exact Hm|reflexivity..|exact (HB _ _ Hne Hg Hr)].
  - rewrite Ho, (tot_core _ _ _ Hm). exact HO.
Qed.
Lemma LoopInv_of_SumInv s a p : SumInv s -> get a (ms_pools s) = Some p -> a <> ROWAN -> LoopInv a s p.
Proof. intros (HP & HO) Hg Ha. split; [exact (HP _ _ Hg Ha)|]. split; [intros a' p' _ Hg' Hr; exact (HP _ _ Hg' Hr)|exact HO]. Qed.
Lemma SumInv_of_LoopInv s a p : LoopInv a s p -> get a (ms_pools s) = Some p -> SumInv s.
Proof.
  intros (HA & HB & HO) Hg. split; [|exact HO]. intros a' p' Hg' Hr.
  destruct (Z.eq_dec a' a) as [->|Hne]; [rewrite Hg in Hg'; injection Hg' as <-; exact HA|exact (HB _ _ Hne Hg' Hr)].
Qed.
Lemma LoopInv_write asset st p : LoopInv asset st p -> SumInv (st <| ms_pools := set asset p (ms_pools st) |>).
Proof.
  intros HL. apply (SumInv_of_LoopInv _ asset p); [|apply get_set_same].
  apply (LoopInv_frame asset st _ p p); try reflexivity; [|exact HL]. intros a' Hne. apply get_set_other. exact Hne.
Qed.

(* a context linked and stored under its key, against a state that had the loop invariant *)
Lemma LoopInv_of_Link a s p c :
  LoopInv a s p -> c_asset c = a -> on_pool a (c_mtp c) ->
  (forall m, find_mtp s (c_addr c) (c_id c) = Some m -> on_pool a m) ->
  Link true true c -> find_mtp (c_s c) (c_addr c) (c_id c) = Some (c_mtp c) ->
  (forall g, others g c = tot g s - gopt g (find_mtp s (c_addr c) (c_id c))) ->
  (forall a', a' <> a -> get a' (ms_pools (c_s c)) = get a' (ms_pools s)) ->
  ms_open (c_s c) = ms_open s + 1 - gopt g_one (find_mtp s (c_addr c) (c_id c)) ->
  LoopInv a (c_s c) (c_pool c).
Proof.
  intros (HA & HB & HO) Ea Hon Hon0 L Hst O Hp Hop.
  assert (Ht : forall g, tot g (c_s c) = tot g s - gopt g (find_mtp s (c_addr c) (c_id c)) + g (c_mtp c)).
  { intros g. specialize (O g). unfold others in O at 1. rewrite Hst in O. cbn [gopt] in O. lia. }
  split; [|split].
  - unfold Link in L. rewrite Ea in L. destruct L as (L1 & L2 & L3 & L4). unfold pool_agrees. rewrite !Ht, L1, L2, L3, L4, !O. repeat split; lia.
  - intros a' p' Hne Hg Hr. rewrite Hp in Hg by exact Hne. destruct (HB _ _ Hne Hg Hr) as (A1 & A2 & A3 & A4).
    destruct (g_other_zero _ _ _ Hon Hne Hr) as (Y1 & Y2 & Y3 & Y4).
    assert (Z0 : gopt (g_nc a') (find_mtp s (c_addr c) (c_id c)) = 0 /\ gopt (g_ec a') (find_mtp s (c_addr c) (c_id c)) = 0 /\
                 gopt (g_nl a') (find_mtp s (c_addr c) (c_id c)) = 0 /\ gopt (g_el a') (find_mtp s (c_addr c) (c_id c)) = 0).
    { destruct (find_mtp s (c_addr c) (c_id c)) as [m|]; cbn [gopt]; [exact (g_other_zero a a' m (Hon0 m eq_refl) Hne Hr)|auto]. }
    destruct Z0 as (Z1 & Z2 & Z3 & Z4). unfold pool_agrees. rewrite !Ht, Z1, Z2, Z3, Z4, Y1, Y2, Y3, Y4. repeat split; lia.
  - rewrite Hop, Ht, HO. change (g_one (c_mtp c)) with 1. lia.
Qed.

Lemma LoopInv_after_close a s p m addr id s' P' :
  LoopInv a s p -> find_mtp s addr id = Some m -> on_pool a m ->
  Closed (mkCtx s p m a addr id) s' -> get a (ms_pools s') = Some P' -> LoopInv a s' P'.
Proof.
  intros (HA & HB & HO) Hf Hon (C1 & (P0 & G' & Q1 & Q2 & Q3 & Q4) & C3 & C4 & C5) Hmem.
  cbn [c_asset c_s] in *. rewrite Hmem in G'. injection G' as <-.
  assert (Ht : forall g, tot g s' = tot g s - g m) by (intros g; rewrite C1; apply others_mk; exact Hf).
  split; [|split].
  - unfold pool_agrees. rewrite !Ht, Q1, Q2, Q3, Q4, !(others_mk _ _ _ _ _ _ _ Hf). auto.
  - intros a' p' Hne Hg Hr. rewrite C3 in Hg by exact Hne. destruct (HB _ _ Hne Hg Hr) as (A1 & A2 & A3 & A4).
    destruct (g_other_zero _ _ _ Hon Hne Hr) as (Z1 & Z2 & Z3 & Z4).
    unfold pool_agrees. rewrite !Ht, Z1, Z2, Z3, Z4. repeat split; lia.
  - rewrite Ht. pose proof (tot_ge g_one s (fun _ _ _ _ _ _ => Z.le_0_1) addr id m Hf) as Hge. unfold g_one in Hge at 1.
    rewrite C4, HO. destruct (Z.eqb_spec (tot g_one s) 0); [lia|]. unfold g_one at 3. lia.
Qed.

Lemma Closed_SumInv s a p m addr id s' :
  SumInv s -> get a (ms_pools s) = Some p -> find_mtp s addr id = Some m -> on_pool a m ->
  Closed (mkCtx s p m a addr id) s' -> SumInv s'.
Proof.
  intros HS Hg Hf Hon HC. pose proof HC as (_ & (P' & G' & _) & _). cbn [c_asset] in G'.
  apply (SumInv_of_LoopInv s' a P'); [|exact G'].
  exact (LoopInv_after_close a s p m addr id s' P' (LoopInv_of_SumInv _ _ _ HS Hg (proj1 Hon)) Hf Hon HC G').
Qed.

Definition position_ok (s : mstate) (addr id : Z) (m : mtp) : Prop :=
  on_pool (pool_asset_of m) m /\ id <> 0 /\
  0 <= m_cust_amt m <= bal (ms_bank s) CLP_MODULE (m_cust_asset m).
Definition pct_ok (s : mstate) : Prop := 0 <= mp_incr_pct (ms_params s) <= PREC.

Lemma closed_from_start s addr id m pool c' :
  SumInv s -> pct_ok s -> position_ok s addr id m -> find_mtp s addr id = Some m -> get (pool_asset_of m) (ms_pools s) = Some pool ->
  let c := mkCtx s pool m (pool_asset_of m) addr id in
  (on_pool (c_asset c) (c_mtp c) -> (epoch_position (c_s c) <> 0 -> interest_hyps c) -> Link true true c -> ClosedG c c') ->
  SumInv (c_s c') /\ get (pool_asset_of m) (ms_pools (c_s c')) = Some (c_pool c') /\ (funds_not_module s -> addr <> CLP_MODULE -> gap_eq c c').
Proof.
  intros HI Hp (Hon & Hid & Hfunds) Hf Hg c Hrun.
  assert (Hh : interest_hyps c) by (unfold interest_hyps; cbn; auto).
  destruct (Hrun Hon (fun _ => Hh) (link_of_agrees s _ pool m addr id (proj1 HI _ _ Hg (proj1 Hon)) Hf)) as (HC & Hst & HG).
  split; [exact (Closed_SumInv _ _ _ _ _ _ _ HI Hg Hf Hon HC)|]. split; assumption.
Qed.

(* C13 and C01 for Close *)
Lemma close_msg_spec s signer id c' r :
  SumInv s -> pct_ok s ->
  (forall m pool, find_mtp s signer id = Some m -> get (pool_asset_of m) (ms_pools s) = Some pool -> position_ok s signer id m) ->
  close_msg s signer id = (c', Ok r) ->
  exists pool m, find_mtp s signer id = Some m /\ get (pool_asset_of m) (ms_pools s) = Some pool /\
    close_long (mkCtx s pool m (pool_asset_of m) signer id) = (c', Ok r) /\
    SumInv (c_s c') /\ get (pool_asset_of m) (ms_pools (c_s c')) = Some (c_pool c') /\
    (funds_not_module s -> signer <> CLP_MODULE -> gap_eq (mkCtx s pool m (pool_asset_of m) signer id) c').
Proof.
  intros HI Hp Hpos. unfold close_msg. cbv zeta. destruct (find_mtp s signer id) as [m|] eqn:Hf; [|discriminate].
  destruct (get (pool_asset_of m) (ms_pools s)) as [pool|] eqn:Hg; [|discriminate]. intros Hc. exists pool, m.
  split; [reflexivity|]. split; [exact Hg|]. split; [exact Hc|].
  exact (closed_from_start s signer id m pool c' HI Hp (Hpos m pool eq_refl Hg) Hf Hg (close_long_spec _ _ _ Hc)).
Qed.
(* AdminClose succeeds only for a margin administrator; C13 and C01 for it *)
Lemma admin_close_msg_spec s adm addr id tf c' r :
  SumInv s -> pct_ok s ->
  (forall m pool, find_mtp s addr id = Some m -> get (pool_asset_of m) (ms_pools s) = Some pool -> position_ok s addr id m) ->
  admin_close_msg s adm addr id tf = (c', Ok r) ->
  adm = true /\ exists pool m, find_mtp s addr id = Some m /\ get (pool_asset_of m) (ms_pools s) = Some pool /\
    force_close_long true tf (mkCtx s pool m (pool_asset_of m) addr id) = (c', Ok r) /\
    SumInv (c_s c') /\ get (pool_asset_of m) (ms_pools (c_s c')) = Some (c_pool c') /\
    (funds_not_module s -> addr <> CLP_MODULE -> gap_eq (mkCtx s pool m (pool_asset_of m) addr id) c').
Proof.
  intros HI Hp Hpos. unfold admin_close_msg. cbv zeta. destruct adm; cbn [negb]; [|discriminate].
  destruct (find_mtp s addr id) as [m|] eqn:Hf; [|discriminate].
  destruct (get (pool_asset_of m) (ms_pools s)) as [pool|] eqn:Hg; [|discriminate]. intros Hc. split; [reflexivity|]. exists pool, m.
  split; [reflexivity|]. split; [exact Hg|]. split; [exact Hc|].
  exact (closed_from_start s addr id m pool c' HI Hp (Hpos m pool eq_refl Hg) Hf Hg (fun A B C => proj2 (force_close_long_spec _ _ _ _ _ Hc A B C))).
Qed.

(* C01 for Close and AdminClose *)
Theorem close_gap s signer id c' r :
  SumInv s -> pct_ok s -> (forall m, find_mtp s signer id = Some m -> position_ok s signer id m) ->
  funds_not_module s -> signer <> CLP_MODULE ->
  close_msg s signer id = (c', Ok r) ->
  exists pool m, find_mtp s signer id = Some m /\ get (pool_asset_of m) (ms_pools s) = Some pool /\
    gap_eq (mkCtx s pool m (pool_asset_of m) signer id) c'.
Proof.
  intros HI Hp Hpos Hfm Ho H.
  destruct (close_msg_spec _ _ _ _ _ HI Hp (fun m _ Hf _ => Hpos m Hf) H) as (pool & m & Hf & Hg & _ & _ & _ & HG). exists pool, m. auto.
Qed.

Theorem admin_close_gap s adm addr id tf c' r :
  SumInv s -> pct_ok s -> (forall m, find_mtp s addr id = Some m -> position_ok s addr id m) ->
  funds_not_module s -> addr <> CLP_MODULE ->
  admin_close_msg s adm addr id tf = (c', Ok r) ->
  exists pool m, find_mtp s addr id = Some m /\ get (pool_asset_of m) (ms_pools s) = Some pool /\
    gap_eq (mkCtx s pool m (pool_asset_of m) addr id) c'.
Proof.
  intros HI Hp Hpos Hfm Ho H.
  destruct (admin_close_msg_spec _ _ _ _ _ _ _ HI Hp (fun m _ Hf _ => Hpos m Hf) H) as (_ & pool & m & Hf & Hg & _ & _ & _ & HG). exists pool, m. auto.
Qed.

Lemma LoopInv_after_interest a s p m addr id cA :
  LoopInv a s p -> find_mtp s addr id = Some m -> on_pool a m ->
  Keeps true (mkCtx s p m a addr id) cA ->
  find_mtp (c_s cA) (c_addr cA) (c_id cA) = Some (c_mtp cA) ->
  LoopInv a (c_s cA) (c_pool cA).
Proof.
  intros HL Hf Hon (L & (K1 & K2 & _ & Ka & Kaddr & Kid & _ & _ & Ko & _ & Kpools) & _ & O) Hst. cbn in K1, K2, Ka, Kaddr, Kid, Ko, Kpools.
  apply (LoopInv_of_Link a s p cA HL Ka); rewrite ?Kaddr, ?Kid, ?Hf; cbn [gopt]; try assumption.
  - unfold on_pool in *. rewrite K1, K2. exact Hon.
  - intros m' [= <-]. exact Hon.
  - rewrite <- Kaddr, <- Kid. exact Hst.
  - intros g. rewrite O. apply others_mk. exact Hf.
  - rewrite Ko. unfold g_one. lia.
Qed.

(* C13 and C01 for one position of the begin blocker, whatever its outcome (interest only, liquidation, error, panic) *)
Lemma process_mtp_spec a s p m addr id c' o :
  process_mtp (mkCtx s p m a addr id) = (c', o) ->
  epoch_position s = 0 ->
  LoopInv a s p -> find_mtp s addr id = Some m -> on_pool a m -> id <> 0 -> pct_ok s ->
  0 <= m_cust_amt m <= bal (ms_bank s) CLP_MODULE (m_cust_asset m) ->
  LoopInv a (c_s c') (c_pool c') /\
  (forall h, o = Ok h -> h <= mp_safety (ms_params s)) /\
  (funds_not_module s -> addr <> CLP_MODULE -> gap_eq (mkCtx s p m a addr id) c').
Proof.
  intros H Hep HL Hf Hon Hid Hp Hfunds.
  set (c := mkCtx s p m a addr id) in *.
  assert (Hh : interest_hyps c).
  { unfold interest_hyps, c; cbn. split; [exact Hon|]. split; [exact Hid|]. split; [exact Hp|exact Hfunds]. }
  assert (L : Link true true c) by (apply link_of_agrees; [exact (proj1 HL)|exact Hf]).
  assert (Hnone : LoopInv a s p /\ (funds_not_module s -> addr <> CLP_MODULE -> gap_eq c c)).
  { split; [exact HL|intros _ _; apply gap_eq_refl]. }
  unfold process_mtp in H. destruct (process_interest c) as [cA oA] eqn:EA. destruct oA as [uA|e|].
  2, 3: injection H as <- <-; split; [apply Hnone|split; [discriminate|apply Hnone]].
  destruct (process_interest_spec _ _ _ EA Hh L) as ((HK & GA) & Hst).
  pose proof (LoopInv_after_interest _ _ _ _ _ _ _ HL Hf Hon HK Hst) as HLA.
  destruct (force_close_long false true cA) as [cF oF] eqn:EF. destruct oF as [r|e|]; injection H as <- <-.
  - pose proof HK as (LA & (_&_&_&Ka&Kaddr&Kid&Kp&Kh&_) & _ & _). cbn in Ka, Kaddr, Kid, Kp, Kh.
    assert (HonA : on_pool (c_asset cA) (c_mtp cA)) by (eapply keeps_on_pool; [exact HK|exact Hon]).
    assert (HepA : epoch_position (c_s cA) = 0) by (unfold epoch_position in *; rewrite Kp, Kh; exact Hep).
    destruct (force_close_long_spec _ _ _ _ _ EF HonA (fun Hc => False_ind _ (Hc HepA)) LA) as (Hsafe & HC & Hmem & GF).
    split; [|split].
    + destruct cA as [sA pA mA aA addrA idA]. cbn in *. subst aA addrA idA.
      eapply (LoopInv_after_close a sA pA mA addr id); eassumption.
    + intros h [= <-]. rewrite <- Kp. apply Hsafe. reflexivity.
    + intros Hfm Ho. eapply gap_eq_trans; [exact (GA (proj1 Hfm))|].
      apply GF; [unfold funds_not_module; rewrite Kp; exact Hfm|rewrite Kaddr; exact Ho].
  - (* not liquidated: the interest part is kept *)
    split; [exact HLA|]. split; [discriminate|]. intros (Hf1 & _) _. exact (GA Hf1).
  - (* a panic in the liquidation: nothing is kept *)
    split; [apply Hnone|split; [discriminate|apply Hnone]].
Qed.

(* C01 for the begin blocker's per-position step *)
Theorem process_mtp_gap a s p m addr id c' o :
  process_mtp (mkCtx s p m a addr id) = (c', o) ->
  epoch_position s = 0 -> LoopInv a s p -> find_mtp s addr id = Some m -> on_pool a m -> id <> 0 -> pct_ok s ->
  0 <= m_cust_amt m <= bal (ms_bank s) CLP_MODULE (m_cust_asset m) ->
  funds_not_module s -> addr <> CLP_MODULE ->
  gap_eq (mkCtx s p m a addr id) c'.
Proof. intros H Hep HL Hf Hon Hid Hp Hfunds. exact (proj2 (proj2 (process_mtp_spec _ _ _ _ _ _ _ _ H Hep HL Hf Hon Hid Hp Hfunds))). Qed.

Lemma set_mtp_new c c' u : set_mtp c = (c', Ok u) -> c_id c = 0 ->
  c' = c <| c_id := ms_count (c_s c) + 1 |>
         <| c_s := put_mtp ((c_s c) <| ms_count := ms_count (c_s c) + 1 |> <| ms_open := ms_open (c_s c) + 1 |>) (c_addr c) (ms_count (c_s c) + 1) (c_mtp c) |>.
Proof. unfold set_mtp. intros H Hid. apply modc_ok in H. rewrite Hid in H. cbn [Z.eqb] in H. exact H. Qed.

Lemma guard_ok (b : bool) c c' u : (if b then failM else ret tt) c = (c', Ok u) -> c' = c /\ b = false.
Proof. destruct b; intros H; [exfalso; exact (failM_not_ok _ _ _ H)|apply ret_ok in H; tauto]. Qed.

Lemma borrow_fn_inv coll_amt cust_amt eta c c' u :
  borrow_fn coll_amt cust_amt eta c = (c', Ok u) -> c_id c = 0 ->
  exists M b p,
    let m := c_mtp c in let P := c_pool c in let id' := ms_count (c_s c) + 1 in
    m_coll_asset M = m_coll_asset m /\ m_cust_asset M = m_cust_asset m /\
    m_coll_amt M = m_coll_amt m + coll_amt /\ 0 <= m_cust_amt M /\
    send (ms_bank (c_s c)) (c_addr c) CLP_MODULE (m_coll_asset m) coll_amt = Some b /\
    (if m_coll_asset m =? ROWAN
     then p = P <| q_nb := q_nb P + coll_amt |> <| q_nl := q_nl P + m_liab M |> /\ 0 <= q_nb p
     else p = P <| q_eb := q_eb P + coll_amt |> <| q_el := q_el P + m_liab M |> /\ 0 <= q_eb p) /\
    c' = mkCtx (put_mtp (c_s c <| ms_bank := b |> <| ms_pools := set (c_asset c) p (ms_pools (c_s c)) |>
                              <| ms_count := id' |> <| ms_open := ms_open (c_s c) + 1 |>) (c_addr c) id' M) p M (c_asset c) (c_addr c) id'.
Proof.
  (* on a context given by its fields every step computes to a context given by its fields *)
  destruct c as [s P m a addr id]. unfold borrow_fn. cbn [c_id c_mtp c_s c_pool c_asset c_addr]. intros H ->. step_getc H.
  step_ok H as c1 u1 E1. apply guard_ok in E1. destruct E1 as (-> & _).
  apply bind_lift_ok in H. destruct H as (liab_add & _ & H).
  step_ok H as c3 u3 E3. apply upd_mtp_ok in E3. cbn in E3. destruct E3 as (m3 & Em3 & ->). repeat inv1 Em3. use_uints. subst.
  step_getc H. apply bind_lift_ok in H. destruct H as (h & _ & H).
  step_ok H as c5 u5 E5. apply upd_mtp_ok in E5. cbn in E5. destruct E5 as (m5 & Em5 & ->). injection Em5 as <-.
  step_ok H as c6 u6 E6. apply bank_send_ok in E6. cbn in E6. destruct E6 as (b & Hsend & ->).
  step_getc H. step_ok H as c7 u7 E7. apply upd_pool_ok in E7. cbn in E7. destruct E7 as (p7 & Hp7 & ->).
  step_ok H as c8 u8 E8. apply set_pool_ok in E8. cbn in E8. subst c8.
  apply set_mtp_new in H; [|reflexivity]. cbn in H. subst c'.
  eexists _, b, p7. cbv zeta. split; [|split; [|split; [|split; [|split; [exact Hsend|split; [|reflexivity]]]]]]; try reflexivity.
  - cbn. lia.
  - destruct (m_coll_asset m =? ROWAN); repeat inv1 Hp7; use_uints; subst; (split; [reflexivity|cbn; lia]).
Qed.

Lemma borrow_fn_gap coll_amt cust_amt eta c c' u :
  borrow_fn coll_amt cust_amt eta c = (c', Ok u) -> c_id c = 0 -> on_pool (c_asset c) (c_mtp c) -> c_addr c <> CLP_MODULE -> gap_eq c c'.
Proof.
  intros H Hid Hon Ho. destruct (borrow_fn_inv _ _ _ _ _ _ H Hid) as (M & b & p & _ & _ & _ & _ & Hs & Hp & ->). cbv zeta in Hp.
  pose proof (send_in _ _ _ _ _ Hs Ho) as Hb. clear Hs.
  assert (Hane : c_asset c <> ROWAN) by apply Hon.
  unfold gap_eq, Gn, Ge. cbn -[bal Z.eqb]. rewrite !Hb.
  destruct Hon as (_ & [(Hc1 & Hc2)|(Hc1 & Hc2)]).
  - rewrite Hc1 in *. rewrite Z.eqb_refl in Hp. destruct Hp as (-> & _). cbn -[bal Z.eqb].
    assert (Eq1 : (c_asset c =? ROWAN) = false) by (apply Z.eqb_neq; congruence). rewrite Eq1, Z.eqb_refl.
    split; [lia|]. split; [lia|]. split; [reflexivity|].
    intros d Hd1 Hd2. rewrite Hb. destruct (Z.eqb_spec d ROWAN); [congruence|]. lia.
  - rewrite Hc2 in *. destruct (Z.eqb_spec (c_asset c) ROWAN); [congruence|]. destruct Hp as (-> & _). cbn -[bal Z.eqb].
    assert (Eq1 : (ROWAN =? c_asset c) = false) by (apply Z.eqb_neq; congruence). rewrite Eq1, Z.eqb_refl.
    split; [lia|]. split; [lia|]. split; [reflexivity|].
    intros d Hd1 Hd2. rewrite Hb. destruct (Z.eqb_spec d (c_asset c)); [congruence|]. lia.
Qed.

Lemma new_mtp_on_pool coll borrow lv :
  Bool.eqb (coll =? ROWAN) (borrow =? ROWAN) = false -> on_pool (if coll =? ROWAN then borrow else coll) (new_mtp coll borrow lv).
Proof.
  unfold on_pool, new_mtp. cbn. destruct (Z.eqb_spec coll ROWAN) as [->|Hc]; destruct (Z.eqb_spec borrow ROWAN) as [->|Hb]; cbn; try discriminate; auto.
Qed.

Lemma open_msg_inv s hl signer coll borrow amt lev c' u :
  open_msg s hl signer coll borrow amt lev = (c', Ok u) ->
  let a := if coll =? ROWAN then borrow else coll in
  let lv := Z.min lev (mp_lev_max (ms_params s)) in
  exists pool cust c7 c8 lr,
    get a (ms_pools s) = Some pool /\ on_pool a (new_mtp coll borrow lv) /\
    borrow_fn amt cust (lv - PREC) (mkCtx s pool (new_mtp coll borrow lv) a signer 0) = (c7, Ok tt) /\
    set_pool c7 = (c8, Ok tt) /\ take_in_custody c8 = (c', Ok tt) /\
    mtp_health (c_s c') a (c_mtp c') (c_pool c') = Ok lr /\ mp_safety (ms_params s) < lr.
Proof.
  intros H a lv. unfold open_msg in H.
  destruct (mp_whitelisting (ms_params s) && negb (mem signer (ms_whitelist s))); [discriminate|].
  destruct (mp_max_open (ms_params s) <=? ms_open s); [discriminate|].
  fold a in H. destruct (get a (ms_pools s)) as [pool|] eqn:Hg; [|discriminate].
  destruct (negb (mem a (mp_pools (ms_params s))) || mem a (mp_closed (ms_params s))); [discriminate|].
  destruct hl; [discriminate|].
  destruct (Bool.eqb (coll =? ROWAN) (borrow =? ROWAN)) eqn:Ex; [discriminate|]. fold lv in H.
  destruct (negb (mp_rowan_coll (ms_params s)) && (coll =? ROWAN)); [exfalso; eapply failM_not_ok; eassumption|].
  apply bind_lift_ok in H. destruct H as (lamt & _ & H).
  step_ok H as c3 u3 E3. apply guard_ok in E3. destruct E3 as (-> & _).
  apply bind_lift_ok in H. destruct H as (u4 & _ & H).
  apply bind_lift_ok in H. destruct H as (cust & _ & H).
  step_ok H as c6 u6 E6. apply guard_ok in E6. destruct E6 as (-> & _).
  step_ok H as c7 u7 E7. step_ok H as c8 u8 E8. step_ok H as c9 u9 E9.
  step_getc H. apply bind_lift_ok in H. destruct H as (lr & Elr & H).
  apply guard_ok in H. destruct H as (-> & Hgt). apply Z.leb_gt in Hgt. destruct u7, u8, u9.
  exists pool, cust, c7, c8, lr. split; [reflexivity|]. split; [exact (new_mtp_on_pool coll borrow lv Ex)|]. auto.
Qed.

(* C13: an accepted Open takes exactly the stated collateral, stores one new position on exactly one pool, healthy, and
   keeps the sums *)
Theorem open_preserves s hl signer coll borrow amt lev c' u :
  SumInv s -> find_mtp s signer (ms_count s + 1) = None ->
  open_msg s hl signer coll borrow amt lev = (c', Ok u) ->
  let a := if coll =? ROWAN then borrow else coll in
  let M := c_mtp c' in
  SumInv (c_s c') /\
  find_mtp (c_s c') signer (ms_count s + 1) = Some M /\ on_pool a M /\
  m_coll_asset M = coll /\ m_cust_asset M = borrow /\ m_coll_amt M = amt /\
  send (ms_bank s) signer CLP_MODULE coll amt = Some (ms_bank (c_s c')) /\
  (exists lr, mtp_health (c_s c') a M (c_pool c') = Ok lr /\ mp_safety (ms_params s) < lr) /\
  get a (ms_pools (c_s c')) = Some (c_pool c').
Proof.
  intros HS Hfn H a M.
  destruct (open_msg_inv _ _ _ _ _ _ _ _ _ H) as (pool & cust & c7 & c8 & lr & Hg & Hon & E7 & E8 & E9 & Elr & Hgt).
  fold a in Hg, Hon, E7, Elr. set (nm := new_mtp coll borrow (Z.min lev (mp_lev_max (ms_params s)))) in *.
  assert (Ha : a <> ROWAN) by apply Hon.
  destruct (borrow_fn_inv _ _ _ _ _ _ E7 eq_refl) as (M7 & b & p7 & A1 & A2 & A3 & _ & Hsend & Hp7 & ->).
  cbv zeta in Hp7. cbn [c_mtp c_s c_pool c_asset c_addr] in *.
  set (id' := ms_count s + 1) in *.
  set (S0 := s <| ms_bank := b |> <| ms_pools := set a p7 (ms_pools s) |> <| ms_count := id' |> <| ms_open := ms_open s + 1 |>) in *.
  assert (Em0 : ms_mtps S0 = ms_mtps s) by reflexivity.
  set (S7 := put_mtp S0 signer id' M7) in *. set (c7 := mkCtx S7 p7 M7 a signer id') in *.
  assert (HonM : on_pool a M7) by (unfold on_pool in *; rewrite A1, A2; exact Hon).
  (* what the others hold does not change: the new key was free *)
  assert (O7 : forall g, others g c7 = tot g s).
  { intros g. unfold others, c7, S7. cbn [c_s c_addr c_id]. rewrite find_put_same, tot_put. cbn [gopt].
    rewrite (tot_core g _ _ Em0), (find_core _ _ _ _ Em0), Hfn. cbn [gopt]. lia. }
  assert (L7 : Link false true c7).
  { destruct (proj1 HS _ _ Hg Ha) as (B1 & B2 & B3 & B4). unfold Link. rewrite !O7. cbn [c_pool c_mtp c_asset c7].
    assert (Ear : (ROWAN =? a) = false) by (apply Z.eqb_neq; congruence).
    assert (Era : (a =? ROWAN) = false) by (apply Z.eqb_neq; exact Ha).
    unfold g_nl at 2, g_el at 2. rewrite A1, A2.
    destruct Hon as (_ & [(Hc1 & Hc2)|(Hc1 & Hc2)]); rewrite Hc1, Hc2, ?Z.eqb_refl, ?Ear, ?Era in *.
    all: destruct Hp7 as (-> & _); cbn; repeat split; lia. }
  pose proof (set_pool_core _ _ _ E8) as Hc8.
  destruct (custody_move_spec false _ _ _ E9) as (Hm9 & _ & Em & Eb & Hmem & L9).
  pose proof (mcore_eq_trans _ _ _ (proj2 Hc8) Hm9) as Hm. pose proof Hm as (_ & _ & _ & _ & Hasset & Haddr & Hid & Hmtps & Hopen & _ & _ & _ & Hpools).
  assert (Hon8 : on_pool (c_asset c8) (c_mtp c8)).
  { exact (on_pool_kcore c7 c8 (mcore_kcore _ _ (proj2 Hc8)) HonM). }
  specialize (L9 true Hon8 (Link_core _ _ _ _ Hc8 L7)). cbn [negb] in L9.
  assert (EM : M = M7) by (unfold M; rewrite Em; apply set_pool_ok in E8; rewrite E8; reflexivity).
  assert (Hst : find_mtp (c_s c') signer id' = Some M) by (rewrite (find_core _ _ _ _ Hmtps), EM; apply find_put_same).
  assert (HL : LoopInv a (c_s c') (c_pool c')).
  { apply (LoopInv_of_Link a s pool c' (LoopInv_of_SumInv _ _ _ HS Hg Ha) Hasset); rewrite ?Haddr, ?Hid; cbn [c7 c_addr c_id].
    all: rewrite ?Hfn; cbn [gopt]; fold M.
    - rewrite EM. exact HonM.
    - discriminate.
    - exact L9.
    - exact Hst.
    - intros g. rewrite (others_core g _ _ Hm), O7. lia.
    - intros a' Hne. rewrite Hpools by exact Hne. apply get_set_other. exact Hne.
    - rewrite Hopen. change (ms_open (c_s c7)) with (ms_open s + 1). lia. }
  replace (c_asset c8) with a in Hmem by (symmetry; apply Hc8).
  split; [exact (SumInv_of_LoopInv _ _ _ HL Hmem)|]. split; [exact Hst|]. rewrite EM.
  split; [exact HonM|]. split; [exact A1|]. split; [exact A2|]. split; [rewrite A3; reflexivity|].
  split; [rewrite Eb; apply set_pool_ok in E8; rewrite E8; exact Hsend|]. split; [|exact Hmem].
  exists lr. rewrite <- EM. split; [exact Elr|exact Hgt].
Qed.

(* C01 for Open *)
Theorem open_gap s hl signer coll borrow amt lev c' u :
  signer <> CLP_MODULE ->
  open_msg s hl signer coll borrow amt lev = (c', Ok u) ->
  let a := if coll =? ROWAN then borrow else coll in
  exists pool, get a (ms_pools s) = Some pool /\
    gap_eq (mkCtx s pool (new_mtp coll borrow (Z.min lev (mp_lev_max (ms_params s)))) a signer 0) c'.
Proof.
  intros Ho H a. destruct (open_msg_inv _ _ _ _ _ _ _ _ _ H) as (pool & cust & c7 & c8 & lr & Hg & Hon & E7 & E8 & E9 & _).
  exists pool. split; [exact Hg|].
  eapply gap_eq_trans; [exact (borrow_fn_gap _ _ _ _ _ _ E7 eq_refl Hon Ho)|].
  eapply gap_eq_trans; [exact (set_pool_gap _ _ _ E8)|exact (proj1 (proj2 (custody_move_spec false _ _ _ E9)))].
Qed.

Definition bb_step (asset : Z) (acc : mstate * mpool * list (Z * Z * Z)) (t : Z * Z * mtp) : mstate * mpool * list (Z * Z * Z) :=
  let '(st, p, closed) := acc in
  let '(addr, id, m) := t in
  let '(c', o) := process_mtp (mkCtx st p m asset addr id) in
  (c_s c', c_pool c', match o with Ok h => closed ++ [(addr, id, h)] | _ => closed end).

(* per-step side conditions: the listed position is still stored as listed when its turn comes (the steps before it
   wrote only their own keys), it lives on this pool, the module account covers its custody *)
Fixpoint steps_ok (asset : Z) (st : mstate) (p : mpool) (ms : list (Z * Z * mtp)) : Prop :=
  match ms with
  | [] => True
  | (addr, id, m) :: rest =>
    find_mtp st addr id = Some m /\ on_pool asset m /\ id <> 0 /\ epoch_position st = 0 /\ pct_ok st /\
    0 <= m_cust_amt m <= bal (ms_bank st) CLP_MODULE (m_cust_asset m) /\
    let '(c', _) := process_mtp (mkCtx st p m asset addr id) in steps_ok asset (c_s c') (c_pool c') rest
  end.

Lemma bb_loop asset : forall ms st p closed st' p' closed',
  fold_left (bb_step asset) ms (st, p, closed) = (st', p', closed') ->
  LoopInv asset st p -> steps_ok asset st p ms ->
  LoopInv asset st' p' /\
  (forall addr id h, In (addr, id, h) closed' -> In (addr, id, h) closed \/ exists st0, h <= mp_safety (ms_params st0)).
Proof.
  induction ms as [|[[addr id] m] rest IH]; intros st p closed st' p' closed' H HL Hs.
  - cbn in H. injection H as <- <- <-. split; [exact HL|]. intros; left; assumption.
  - cbn [fold_left] in H. cbn [steps_ok] in Hs. destruct Hs as (Hf & Hon & Hid & Hep & Hp & Hfunds & Hrest).
    unfold bb_step at 2 in H.
    destruct (process_mtp (mkCtx st p m asset addr id)) as [c1 o1] eqn:E.
    destruct (process_mtp_spec _ _ _ _ _ _ _ _ E Hep HL Hf Hon Hid Hp Hfunds) as (HL1 & Hsafe & _).
    destruct (IH _ _ _ _ _ _ H HL1 Hrest) as (HLf & Hc).
    split; [exact HLf|].
    intros a0 i0 h0 Hin. destruct (Hc _ _ _ Hin) as [Hin'|Hex]; [|right; exact Hex].
    destruct o1 as [h| |]; [|left; exact Hin'|left; exact Hin'].
    apply in_app_or in Hin'. destruct Hin' as [Hin'|[Heq|[]]]; [left; exact Hin'|].
    injection Heq as <- <- <-. right. exists st. apply Hsafe. reflexivity.
Qed.

Definition bb_p1 (pool : mpool) (new_rate : Z * Z * Z) : mpool :=
  let '(r, rn, rd) := new_rate in
  pool <| q_bin := 0 |> <| q_bie := 0 |> <| q_rate := r |> <| q_rate_num := rn |> <| q_rate_den := rd |>.
Definition bb_s1 (s : mstate) (asset : Z) (pool : mpool) (new_rate : Z * Z * Z) : mstate :=
  s <| ms_pools := set asset (bb_p1 pool new_rate) (ms_pools s) |>.
Definition bb_list (s : mstate) (asset : Z) : list (Z * Z * mtp) :=
  filter (fun t => let '(_, _, m) := t in (m_cust_asset m =? asset) || (m_coll_asset m =? asset)) (all_mtps s).

Lemma begin_block_pool_cases s a pool nr s' closed :
  begin_block_pool s a pool nr = Ok (s', closed) ->
  (s' = s <| ms_pools := set a (pool <| q_bin := 0 |> <| q_bie := 0 |>) (ms_pools s) |> /\ closed = []) \/
  (s' = s /\ closed = []) \/
  (exists s2 p2, fold_left (bb_step a) (bb_list (bb_s1 s a pool nr) a) (bb_s1 s a pool nr, bb_p1 pool nr, []) = (s2, p2, closed) /\
                 s' = s2 <| ms_pools := set a p2 (ms_pools s2) |>).
Proof.
  destruct nr as [[r rn] rd]. unfold begin_block_pool. destruct (negb _); [intros [= <- <-]; auto|].
  destruct (_ || _); [intros [= <- <-]; auto|].
  change (fold_left _ _ _) with (fold_left (bb_step a) (bb_list (bb_s1 s a pool (r, rn, rd)) a) (bb_s1 s a pool (r, rn, rd), bb_p1 pool (r, rn, rd), [])).
  destruct (fold_left _ _ _) as [[s2 p2] cl]. intros [= <- <-]. right. right. eauto.
Qed.

Lemma LoopInv_start s a pool nr :
  SumInv s -> get a (ms_pools s) = Some pool -> a <> ROWAN -> LoopInv a (bb_s1 s a pool nr) (bb_p1 pool nr).
Proof.
  intros HS Hg Ha. destruct nr as [[r rn] rd].
  apply (LoopInv_frame a s _ pool); try reflexivity; [|exact (LoopInv_of_SumInv _ _ _ HS Hg Ha)].
  intros a' Hne. apply get_set_other. exact Hne.
Qed.

(* C13 for the pass over one pool under per-step conditions. The second conjunct holds of any h; the bound against the
   starting state's safety factor is MarginLoop.begin_block_pool_ready's *)
Theorem begin_block_pool_preserves s asset pool new_rate s' closed :
  SumInv s -> get asset (ms_pools s) = Some pool -> asset <> ROWAN ->
  begin_block_pool s asset pool new_rate = Ok (s', closed) ->
  steps_ok asset (bb_s1 s asset pool new_rate) (bb_p1 pool new_rate) (bb_list (bb_s1 s asset pool new_rate) asset) ->
  SumInv s' /\ (forall addr id h, In (addr, id, h) closed -> exists st0, h <= mp_safety (ms_params st0)).
Proof.
  intros HS Hg Ha H Hsteps.
  destruct (begin_block_pool_cases _ _ _ _ _ _ H) as [(-> & ->)|[(-> & ->)|(s2 & p2 & EF & ->)]].
  - split; [|intros ? ? ? []]. apply LoopInv_write.
    apply (LoopInv_frame asset s s pool); try reflexivity. exact (LoopInv_of_SumInv _ _ _ HS Hg Ha).
  - split; [exact HS|intros ? ? ? []].
  - destruct (bb_loop asset _ _ _ _ _ _ _ EF (LoopInv_start s asset pool new_rate HS Hg Ha) Hsteps) as (HLf & Hc).
    split; [apply LoopInv_write; exact HLf|].
    intros addr id h Hin. destruct (Hc _ _ _ Hin) as [[]|Hex]. exact Hex.
Qed.
