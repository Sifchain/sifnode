(* C10: what the administrator messages accept is what the block hooks can digest. *)
From Coq Require Import ZArith Lia Bool List.
From RecordUpdate Require Import RecordUpdate.
From Sif Require Import Base.Outcome Base.SdkMath Base.Store Base.Bank Model.ClpTypes Model.ClpRewards Model.ClpPolicy
  Proofs.SdkMathProofs.
Import ListNotations.
Local Open Scope Z_scope.

Lemma uint_lim_pos : 0 < UINT_LIM. Proof. reflexivity. Qed.
Lemma u64_lim_pos : 0 < U64_LIM. Proof. reflexivity. Qed.
Lemma u64_eq : ClpRewards.U64 = U64_LIM. Proof. reflexivity. Qed.
Lemma prec_fits : PREC < DEC_LIM. Proof. reflexivity. Qed.
Global Opaque UINT_LIM U64_LIM ClpRewards.U64 DEC_LIM.

Lemma ck_uint_fits x : 0 <= x < UINT_LIM -> ck_uint x = Ok x.
Proof. intros H. unfold ck_uint, fits_uint. destruct (Z.leb_spec 0 x), (Z.ltb_spec x UINT_LIM); try lia. reflexivity. Qed.
Lemma ck_dec_fits x : Z.abs x < DEC_LIM -> ck_dec x = Ok x.
Proof. intros H. unfold ck_dec, fits_dec. destruct (Z.ltb_spec (Z.abs x) DEC_LIM); [reflexivity | lia]. Qed.

Definition LPSafe (l : lp_state) : Prop :=
  0 <= lps_current l <= lps_max l /\ lps_max l < UINT_LIM /\ (lps_active l = true -> 1 <= lps_epoch l).

Lemma lp_begin_safe l : LPSafe l -> exists l', lp_begin l = Ok l' /\ LPSafe l' /\ lps_max l' = lps_max l /\ lps_current l <= lps_current l'.
Proof.
  intros (Hc & Hm & He). unfold lp_begin. destruct (lps_active l) eqn:Ea; cbn [negb].
  - specialize (He eq_refl). unfold uint_quo, uint_sub, uint_add. destruct (Z.eqb_spec (lps_epoch l) 0); [lia|].
    assert (Hq : 0 <= lps_max l / lps_epoch l) by (apply Z.div_pos; lia).
    rewrite ck_uint_fits by lia. cbn [bind].
    destruct (Z.ltb_spec (lps_max l - lps_current l) (lps_max l / lps_epoch l)); [|rewrite ck_uint_fits by lia; cbn [bind]].
    all: eexists; split; [reflexivity|]; unfold LPSafe; cbn; rewrite Ea; repeat split; intros; lia.
  - exists l. unfold LPSafe. rewrite Ea. repeat split; lia.
Qed.

Definition rp_safe (p : reward_period) : Prop := (rp_end p - rp_start p + 1) mod U64_LIM <> 0.
Definition rp_typed (p : rp_msg) : Prop := 0 <= rm_start p < U64_LIM /\ 0 <= rm_end p < U64_LIM.

Lemma rp_valid_safe p : rp_typed p -> rp_valid p = true -> rp_safe (rp_of_msg p).
Proof.
  intros ((Hs1 & Hs2) & (He1 & He2)). unfold rp_valid. rewrite !andb_true_iff, Z.leb_le, !negb_true_iff, Z.eqb_neq.
  intros (((((_ & Hle) & Hne) & _) & _) & _). unfold rp_safe, rp_of_msg; cbn. rewrite Z.mod_small by lia. lia.
Qed.

Lemma rp_safe_block_distribution p : rp_safe p -> exists x, calc_block_distribution p = Ok x.
Proof.
  unfold rp_safe, calc_block_distribution. rewrite u64_eq. intros H.
  destruct (Z.eqb_spec ((rp_end p - rp_start p + 1) mod U64_LIM) 0); [contradiction|]. eexists; reflexivity.
Qed.
Lemma rewards_mod_site h p :
  let p' := if rp_mod p =? 0 then mkRP (rp_start p) (rp_end p) (rp_alloc p) (rp_mults p) (rp_default p) (rp_distribute p) 1 else p in
  exists b, is_distribution_block h (rp_start p') (rp_mod p') = Ok b.
Proof.
  cbv zeta. unfold is_distribution_block. destruct (Z.eqb_spec (rp_mod p) 0) as [E|E]; cbn.
  - eexists; reflexivity.
  - destruct (Z.eqb_spec (rp_mod p) 0); [contradiction|]. eexists; reflexivity.
Qed.

Definition lppd_safe (p : lppd_period) : Prop := pd_mod p <> 0 /\ 0 <= pd_rate p <= PREC /\ pd_start p <= pd_end p.
Lemma lppd_valid_safe p : lppd_valid p = true -> lppd_safe p.
Proof.
  unfold lppd_valid, lppd_safe. rewrite !andb_true_iff, !Z.leb_le, negb_true_iff, Z.eqb_neq. lia.
Qed.
Lemma lppd_safe_site h p : lppd_safe p -> exists b, is_distribution_block h (pd_start p) (pd_mod p) = Ok b.
Proof.
  intros (H & _). unfold is_distribution_block. destruct (Z.eqb_spec (pd_mod p) 0); [contradiction|]. eexists; reflexivity.
Qed.

Definition PMSafe (pm : pmtp_state) : Prop := 1 <= pm_epoch_len pm /\ - PREC < pm_gov pm.

(* what PMSafe reads: the block hooks and ModifyPmtpRates never write it *)
Definition pm_static (pm : pmtp_state) : Z * Z := (pm_epoch_len pm, pm_gov pm).
Lemma PMSafe_static pm pm' : pm_static pm' = pm_static pm -> PMSafe pm -> PMSafe pm'.
Proof. unfold PMSafe. intros [= -> ->]. auto. Qed.

(* end_rate_ok read backwards, for a policy of negative rate and positive epoch length *)
Lemma end_rate_ok_inv pm br : end_rate_ok pm br = Ok tt -> pm_gov pm < 0 -> 0 < pm_epoch_len pm ->
  exists b, br = Some b /\ (0 <= b \/ exists r, policy_end_rate pm b = Ok r /\ - PREC < r).
Proof.
  unfold end_rate_ok. intros Hok Hg Hl. destruct (Z.leb_spec 0 (pm_gov pm)) as [Hge|Hlt]; [lia|].
  destruct (Z.leb_spec (pm_epoch_len pm) 0) as [Hle|Hgt]; [lia|]. cbn [orb] in Hok.
  destruct br as [b|]; [|discriminate]. exists b. split; [reflexivity|].
  destruct (Z.leb_spec 0 b) as [Hb|Hb]; [left; assumption|right].
  apply bind_ok_inv in Hok as (r & Hr & Hok). exists r. split; [exact Hr|].
  destruct (Z.leb_spec r (- PREC)) as [Hr2|Hr2]; [discriminate|lia].
Qed.
Lemma update_pmtp_params_inv s g el st en br s' :
  update_pmtp_params s g el st en br = Ok s' ->
  exists pm, s' = s <| pol_pmtp := pm |> /\ end_rate_ok pm br = Ok tt /\ 0 < pm_epoch_len pm /\
    pm_inter pm = pm_inter (pol_pmtp s) /\ (pm_gov pm = pm_gov (pol_pmtp s) \/ - PREC < pm_gov pm).
Proof.
  unfold update_pmtp_params.
  destruct (Z.leb_spec el 0); [discriminate|]. destruct (st <? 0); [discriminate|].
  destruct (en <=? 0); [discriminate|]. destruct (en <? st); [discriminate|].
  destruct (negb _); [discriminate|]. destruct (in_window s); [discriminate|]. destruct (st <=? pol_height s); [discriminate|].
  destruct g as [| |gv]; [|discriminate|destruct (Z.leb_spec gv (- PREC)); [discriminate|]].
  all: intros Hup; apply bind_ok_inv in Hup as ([] & Hu & [= <-]); eexists; split; [reflexivity|]; cbn; auto.
Qed.

Lemma modify_pmtp_rates_inv s b r e br s' :
  modify_pmtp_rates s b r e br = Ok s' ->
  exists pm, s' = s <| pol_pmtp := pm |> /\ pm_static pm = pm_static (pol_pmtp s) /\
    forall rv, r = DVal rv -> in_window s = false -> pol_height s < pm_start (pol_pmtp s) ->
      end_rate_ok pm br = Ok tt /\ pm_inter pm = rv /\
      pm_start pm = pm_start (pol_pmtp s) /\ pm_end pm = pm_end (pol_pmtp s).
Proof.
  unfold modify_pmtp_rates. intros H.
  apply bind_ok_inv in H as (pm1 & H1 & H). apply bind_ok_inv in H as (pm2 & H2 & H).
  assert (E1 : exists br1, pm1 = pol_pmtp s <| pm_block_rate := br1 |>).
  { exists (pm_block_rate pm1). destruct b as [| |bv]; [|destruct (in_window s); [|discriminate]|destruct (in_window s)];
      cbv beta iota in H1; injection H1 as <-; destruct (pol_pmtp s); reflexivity. }
  destruct E1 as (br1 & ->).
  destruct (in_window s) eqn:Ew.
  - assert (pm2 = pol_pmtp s <| pm_block_rate := br1 |>) as -> by (destruct r; injection H2 as <-; reflexivity).
    destruct e; injection H as <-; (eexists; split; [reflexivity|]; split; [reflexivity | intros rv _ Hf; discriminate Hf]).
  - rewrite andb_false_r in H. injection H as <-. exists pm2. split; [reflexivity|].
    destruct r as [| |rv]; [injection H2 as <-; split; [reflexivity | discriminate] | discriminate |].
    destruct (rv <=? - PREC); [discriminate|].
    change (pm_start (pol_pmtp s <| pm_block_rate := br1 |>)) with (pm_start (pol_pmtp s)) in H2.
    destruct (Z.ltb_spec (pol_height s) (pm_start (pol_pmtp s))) as [Hlt|Hge].
    + apply bind_ok_inv in H2 as ([] & Hu & [= <-]). split; [reflexivity|]. intros rv' [= <-] _ _. auto.
    + injection H2 as <-. split; [reflexivity|]. intros rv' _ _ Hh. lia.
Qed.

(* Dec.Power cannot overflow for a base of absolute value at most one (block rates in [-2, 0]) *)
Lemma chop_round_pos_le_one d : 0 <= d <= PREC * PREC -> 0 <= chop_round_pos d <= PREC.
Proof.
  intros Hd. pose proof PREC_pos. pose proof (chop_round_pos_nonneg d ltac:(lia)). pose proof (chop_round_pos_bounds d). nia.
Qed.
Lemma dec_mul_le_one a b : Z.abs a <= PREC -> Z.abs b <= PREC -> Z.abs (dec_mul a b) <= PREC.
Proof.
  intros Ha Hb. unfold dec_mul, chop_round.
  assert (Hab : Z.abs (a * b) <= PREC * PREC) by (rewrite Z.abs_mul; apply Z.mul_le_mono_nonneg; lia).
  destruct (Z.ltb_spec (a * b) 0).
  - destruct (chop_round_pos_le_one (- (a * b)) ltac:(lia)). lia.
  - destruct (chop_round_pos_le_one (a * b) ltac:(lia)). lia.
Qed.
Lemma Dmul_le_one a b : Z.abs a <= PREC -> Z.abs b <= PREC -> exists c, Dmul a b = Ok c /\ Z.abs c <= PREC.
Proof.
  intros Ha Hb. pose proof (dec_mul_le_one a b Ha Hb) as H. pose proof prec_fits.
  unfold Dmul. rewrite ck_dec_fits by lia. eauto.
Qed.
Lemma Dpower_loop_le_one fuel : forall d tmp i, Z.abs d <= PREC -> Z.abs tmp <= PREC ->
  exists d' tmp', Dpower_loop fuel d tmp i = Ok (d', tmp') /\ Z.abs d' <= PREC /\ Z.abs tmp' <= PREC.
Proof.
  induction fuel as [|f IH]; intros d tmp i Hd Ht; cbn [Dpower_loop]; [eauto|].
  destruct (i <=? 1); [eauto|].
  destruct (Dmul_le_one d d Hd Hd) as (dd & E1 & H1).
  destruct (Z.odd i).
  - destruct (Dmul_le_one tmp d Ht Hd) as (td & E2 & H2). rewrite E2. cbn [bind]. rewrite E1. cbn [bind]. apply IH; auto.
  - cbn [bind]. rewrite E1. cbn [bind]. apply IH; auto.
Qed.
Lemma Dpower_le_one d p : Z.abs d <= PREC -> exists c, Dpower d p = Ok c /\ Z.abs c <= PREC.
Proof.
  intros Hd. pose proof PREC_pos. assert (Hp : Z.abs PREC <= PREC) by lia.
  unfold Dpower. destruct (p =? 0); [eauto|].
  destruct (Dpower_loop_le_one 64 d PREC p Hd Hp) as (d' & tmp' & E & H1 & H2).
  rewrite E. cbn [bind]. apply Dmul_le_one; auto.
Qed.

Lemma policy_calc_le_one pm h :
  Z.abs (PREC + pm_block_rate pm) <= PREC -> Z.abs (pm_inter pm) < DEC_LIM - 2 * PREC ->
  exists pm', policy_calc pm h = Ok pm'.
Proof.
  intros Hb Hi. unfold policy_calc. pose proof prec_fits. rewrite ck_dec_fits by lia. cbn [bind].
  destruct (Dpower_le_one (PREC + pm_block_rate pm) (h - pm_start pm + 1) Hb) as (c & Ec & Hc). rewrite Ec. cbn [bind].
  rewrite ck_dec_fits by lia. cbn [bind]. rewrite ck_dec_fits by lia. eexists; reflexivity.
Qed.
Lemma policy_calc_running pm h pm' : policy_calc pm h = Ok pm' -> exists r, pm' = pm <| pm_running := r |>.
Proof.
  unfold policy_calc. intros H. do 4 (apply bind_ok_inv in H as (? & _ & H)). injection H as <-. eauto.
Qed.

Definition starts (pm : pmtp_state) (h : Z) : bool := (h =? pm_start pm) && (pm_epochs pm =? 0) && (pm_blocks pm =? 0).
Definition runs (pm : pmtp_state) (h : Z) : bool := (pm_start pm <=? h) && (h <=? pm_end pm) && (0 <? pm_epochs pm).

(* what a block needs of its environment: the float oracle gives a parsable number if the policy starts in it, and the
   Dec.Power of PolicyCalculations does not overflow. [block_env_ok s br] below, the form the history theorem uses, is
   [calc_ok (pol_pmtp s) (pol_height s + 1) br] written out. *)
Definition calc_ok (pm : pmtp_state) (h : Z) (br : option Z) : Prop :=
  (starts pm h = true -> br <> None) /\
  (forall pm1, (if starts pm h then policy_start pm br else Ok pm) = Ok pm1 -> runs pm1 h = true -> exists pm', policy_calc pm1 h = Ok pm').

Lemma pmtp_begin_safe pm h br : PMSafe pm -> calc_ok pm h br -> exists pm', pmtp_begin pm h br = Ok pm' /\ PMSafe pm'.
Proof.
  intros Hs [Hbr Hcalc]. unfold pmtp_begin. fold (starts pm h).
  assert (H1 : exists pm1, (if starts pm h then policy_start pm br else Ok pm) = Ok pm1 /\ pm_static pm1 = pm_static pm).
  { destruct (starts pm h); [|eauto]. destruct br as [b|]; [|exfalso; apply Hbr; auto].
    unfold policy_start. destruct Hs. destruct (Z.eqb_spec (pm_epoch_len pm) 0); [lia | eauto]. }
  destruct H1 as (pm1 & E1 & S1). rewrite E1. cbn [bind]. fold (runs pm1 h).
  assert (H2 : exists pm2, (if runs pm1 h then bind (policy_calc pm1 h) (fun pm' => Ok (pm' <| pm_blocks := pm_blocks pm' - 1 |>)) else Ok pm1) = Ok pm2
                           /\ pm_static pm2 = pm_static pm1).
  { destruct (runs pm1 h) eqn:Er; [|eauto]. destruct (Hcalc pm1 E1 Er) as (pm' & Ec). rewrite Ec. cbn [bind].
    apply policy_calc_running in Ec as (r & ->). eauto. }
  destruct H2 as (pm2 & E2 & S2). rewrite E2. cbn [bind].
  eexists. split; [reflexivity|]. apply (PMSafe_static pm); [|exact Hs]. rewrite <- S1, <- S2.
  destruct ((pm_blocks pm2 =? 0) && (h <? pm_end pm2) && (pm_start pm2 <=? h));
    match goal with |- pm_static (if ?c then _ else _) = _ => destruct c end; reflexivity.
Qed.

Lemma spot_price_x_total X Y r n : exists o, spot_price_x X Y r n = Ok o /\
  forall num den, o = Some (num, den) -> den <> 0.
Proof.
  unfold spot_price_x. destruct (Z.eqb_spec X 0); [eexists; split; [reflexivity | discriminate]|].
  destruct (Z.eqb_spec (PREC + r) 0); [eexists; split; [reflexivity | discriminate]|].
  pose proof PREC_pos.
  destruct n; eexists; (split; [reflexivity|]); intros num den [= _ <-]; apply Z.neq_mul_0; split; lia.
Qed.

Definition PolSafe (s : policy_state) : Prop :=
  LPSafe (pol_lp s) /\ PMSafe (pol_pmtp s) /\ Forall rp_safe (pol_rewards s) /\ Forall lppd_safe (pol_lppd s).

Lemma PolSafe_set_lp s l : PolSafe s -> LPSafe l -> PolSafe (s <| pol_lp := l |>).
Proof. intros (_ & H) Hl. exact (conj Hl H). Qed.
Lemma PolSafe_set_pmtp s pm : PolSafe s -> PMSafe pm -> PolSafe (s <| pol_pmtp := pm |>).
Proof. intros (HL & _ & H) Hp. exact (conj HL (conj Hp H)). Qed.

Definition msg_typed (m : policy_msg) : Prop :=
  match m with
  | PAddRewardPeriods ps => Forall rp_typed ps
  | PUpdateLPParams mx _ _ => 0 <= mx < UINT_LIM
  | PModifyLPRates c => 0 <= c
  | _ => True
  end.

Lemma policy_handle_safe s m s' : PolSafe s -> msg_typed m -> policy_handle s m = Ok s' -> PolSafe s' /\ pol_height s' = pol_height s.
Proof.
  intros Hs Ht H. pose proof Hs as (HL & HP & HR & HD).
  destruct m as [ps|ps|g el st en|b r e|mx ep a|c|d rs]; cbn [policy_handle msg_typed] in *.
  - destruct (forallb rp_valid ps) eqn:Ev; [|discriminate]. injection H as <-. split; [|reflexivity].
    split; [exact HL|]. split; [exact HP|]. split; [|exact HD].
    rewrite forallb_forall in Ev. rewrite Forall_forall in Ht.
    apply Forall_forall. intros p Hin. apply in_map_iff in Hin as (q & <- & Hq). apply rp_valid_safe; auto.
  - destruct (forallb lppd_valid ps) eqn:Ev; [|discriminate]. injection H as <-. split; [|reflexivity].
    split; [exact HL|]. split; [exact HP|]. split; [exact HR|].
    rewrite forallb_forall in Ev. apply Forall_forall. intros p Hin. apply lppd_valid_safe; auto.
  - apply update_pmtp_params_inv in H as (pm & -> & _ & Hl & _ & Hg). split; [|reflexivity].
    apply PolSafe_set_pmtp; [exact Hs|]. destruct HP. split; [lia|]. destruct Hg as [->|]; assumption.
  - apply modify_pmtp_rates_inv in H as (pm & -> & Est & _). split; [|reflexivity].
    apply PolSafe_set_pmtp; [exact Hs | exact (PMSafe_static _ _ Est HP)].
  - unfold update_lp_params in H. destruct (Z.leb_spec ep 0); [discriminate|]. injection H as <-. split; [|reflexivity].
    apply PolSafe_set_lp; [exact Hs|]. unfold LPSafe; cbn. repeat split; lia.
  - unfold modify_lp_rates in H. destruct (Z.ltb_spec (lps_max (pol_lp s)) c); [discriminate|]. injection H as <-.
    split; [|reflexivity]. apply PolSafe_set_lp; [exact Hs|]. destruct HL as (H1 & H2 & H3). unfold LPSafe; cbn. repeat split; try lia. exact H3.
  - destruct (fee_rate_ok d && forallb fee_rate_ok rs); [|discriminate]. injection H as <-. split; [exact Hs | reflexivity].
Qed.

Lemma swap_fee_accepted s d rs s' : policy_handle s (PUpdateSwapFee d rs) = Ok s' ->
  s' = s /\ 0 <= d <= PREC /\ Forall (fun r => 0 <= r <= PREC) rs.
Proof.
  assert (Hfee : forall r, fee_rate_ok r = true -> 0 <= r <= PREC).
  { intros r. unfold fee_rate_ok. rewrite andb_true_iff, !Z.leb_le. tauto. }
  cbn [policy_handle]. destruct (fee_rate_ok d && forallb fee_rate_ok rs) eqn:E; [|discriminate]. intros [= <-].
  apply andb_prop in E as [E1 E2]. split; [reflexivity|]. split; [exact (Hfee d E1)|].
  apply Forall_forall. intros r Hr. rewrite forallb_forall in E2. exact (Hfee r (E2 r Hr)).
Qed.

Lemma policy_deliver_safe s m : PolSafe s -> msg_typed m -> PolSafe (fst (policy_deliver s m)).
Proof.
  intros Hs Ht. unfold policy_deliver. destruct (policy_handle s m) eqn:E; cbn [fst]; auto.
  eapply policy_handle_safe; eauto.
Qed.

Lemma policy_begin_safe s br : PolSafe s -> calc_ok (pol_pmtp s) (pol_height s) br ->
  exists s', policy_begin s br = Ok s' /\ PolSafe s'.
Proof.
  intros Hs Hc. pose proof Hs as (HL & HP & _). unfold policy_begin.
  destruct (lp_begin_safe _ HL) as (l' & El & Sl & _). rewrite El. cbn [bind].
  destruct (pmtp_begin_safe _ _ _ HP Hc) as (pm' & Ep & Sp). rewrite Ep. cbn [bind].
  eexists. split; [reflexivity|]. apply PolSafe_set_pmtp; [apply PolSafe_set_lp|]; assumption.
Qed.

Inductive pstep := PMsg (m : policy_msg) | PBlock (br : option Z).
Definition prun1 (s : policy_state) (st : pstep) : Outcome policy_state :=
  match st with
  | PMsg m => Ok (fst (policy_deliver s m))
  | PBlock br => bind (policy_begin (s <| pol_height := pol_height s + 1 |>) br) (fun s' => Ok s')
  end.
Fixpoint prun (s : policy_state) (h : list pstep) : Outcome policy_state :=
  match h with [] => Ok s | st :: h' => bind (prun1 s st) (fun s1 => prun s1 h') end.

Definition block_env_ok (s : policy_state) (br : option Z) : Prop :=
  let s1 := s <| pol_height := pol_height s + 1 |> in
  (starts (pol_pmtp s1) (pol_height s1) = true -> br <> None) /\
  (forall pm1, (if starts (pol_pmtp s1) (pol_height s1) then policy_start (pol_pmtp s1) br else Ok (pol_pmtp s1)) = Ok pm1 ->
     runs pm1 (pol_height s1) = true -> exists pm', policy_calc pm1 (pol_height s1) = Ok pm').
Fixpoint hist_env_ok (s : policy_state) (h : list pstep) : Prop :=
  match h with
  | [] => True
  | PMsg m :: h' => msg_typed m /\ hist_env_ok (fst (policy_deliver s m)) h'
  | PBlock br :: h' => block_env_ok s br /\
      match policy_begin (s <| pol_height := pol_height s + 1 |>) br with Ok s1 => hist_env_ok s1 h' | _ => True end
  end.

Theorem policy_history_no_panic : forall h s, PolSafe s -> hist_env_ok s h -> exists s', prun s h = Ok s' /\ PolSafe s'.
Proof.
  induction h as [|st h IH]; intros s Hs He; [exists s; split; [reflexivity | exact Hs]|].
  destruct st as [m|br]; cbn [prun prun1 hist_env_ok] in *.
  - destruct He as (Ht & He). cbn [bind]. apply IH; [apply policy_deliver_safe; assumption | exact He].
  - destruct He as (Hb & He).
    assert (Hs1 : PolSafe (s <| pol_height := pol_height s + 1 |>)) by exact Hs.
    destruct (policy_begin_safe _ br Hs1 Hb) as (s' & E & S). rewrite E in *. cbn [bind]. apply IH; assumption.
Qed.
