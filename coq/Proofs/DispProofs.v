(* x/dispensation: escrow, create / run effects, per-key ledger (paid at most once, in full), claims. *)
From Coq Require Import ZArith Lia Bool List Permutation.
From RecordUpdate Require Import RecordUpdate.
From Sif Require Import Base.Outcome Base.Store Base.Bank Proofs.BankProofs Model.Dispensation.
Import ListNotations.
Local Open Scope Z_scope.

Lemma key_eqb_eq a b : key_eqb a b = true <-> a = b.
Proof.
  destruct a as [[a1 a2] a3], b as [[b1 b2] b3]. unfold key_eqb, k_name, k_type, k_raw; cbn.
  rewrite !andb_true_iff, !Z.eqb_eq. split; [intros [[-> ->] ->]; reflexivity | intros [= -> -> ->]; auto].
Qed.
Lemma key_eqb_spec a b : reflect (a = b) (key_eqb a b).
Proof. apply iff_reflect. symmetry. apply key_eqb_eq. Qed.
Lemma key_eqb_refl a : key_eqb a a = true.
Proof. apply key_eqb_eq; reflexivity. Qed.
Lemma key_eqb_neq a b : a <> b -> key_eqb a b = false.
Proof. destruct (key_eqb_spec a b); [contradiction | reflexivity]. Qed.
Lemma key_eqb_sym a b : key_eqb a b = key_eqb b a.
Proof. destruct (key_eqb_spec a b) as [->|]; [rewrite key_eqb_refl | rewrite key_eqb_neq by congruence]; reflexivity. Qed.

Lemma pair_eqbZ_eq a b : pair_eqbZ a b = true <-> a = b.
Proof.
  destruct a, b. unfold pair_eqbZ; cbn. rewrite andb_true_iff, !Z.eqb_eq.
  split; [intros [-> ->]; reflexivity | intros [= -> ->]; auto].
Qed.
Lemma inb_spec {A} (eqb : A -> A -> bool) : (forall a b, eqb a b = true <-> a = b) ->
  forall x l, inb eqb x l = true <-> In x l.
Proof.
  intros Heq x l. unfold inb. rewrite existsb_exists. split.
  - intros (y & Hy & E). apply Heq in E. subst. exact Hy.
  - intros H. exists x. split; [exact H | apply Heq; reflexivity].
Qed.

Section TableLemmas.
  Context {V : Type}.
  Implicit Types t : table V.

  Definition tkeys t : list rkey := map fst t.

  Lemma rget_none_notin k t : rget k t = None <-> ~ In k (tkeys t).
  Proof.
    induction t as [|[k' v'] t IH]; cbn; [tauto|].
    destruct (key_eqb_spec k k') as [<-|Hk]; [split; [discriminate | intros H; exfalso; apply H; auto]|].
    rewrite IH. split; [intros H [H1|H1]; [congruence|auto] | intros H H1; apply H; auto].
  Qed.
  Lemma rget_in k v t : rget k t = Some v -> In (k, v) t.
  Proof.
    induction t as [|[k' v'] t IH]; cbn; [discriminate|].
    destruct (key_eqb_spec k k') as [<-|Hk]; [intros [= ->]; auto | auto].
  Qed.
  Lemma in_rget_nodup k v t : NoDup (tkeys t) -> In (k, v) t -> rget k t = Some v.
  Proof.
    induction t as [|[k' v'] t IH]; cbn; [tauto|]. intros Hnd [H|H].
    - injection H as -> ->. rewrite key_eqb_refl. reflexivity.
    - inversion Hnd as [|? ? Hni Hnd']; subst.
      destruct (key_eqb_spec k k') as [<-|Hk]; [exfalso; apply Hni; apply (in_map fst) in H; exact H | auto].
  Qed.

  (* Up to the order of the entries an insertion puts the entry in front, and (rset_perm below) every update is
     "delete the key, then put the new entry in front". *)
  Lemma rinsert_perm k v t : Permutation (rinsert k v t) ((k, v) :: t).
  Proof.
    induction t as [|[k' v'] t IH]; cbn; [reflexivity|].
    destruct (key_ltb k k'); [reflexivity|]. rewrite IH. apply perm_swap.
  Qed.
  Lemma rdel_absent k t : rget k t = None -> rdel k t = t.
  Proof.
    induction t as [|[k' v'] t IH]; cbn; [reflexivity|].
    destruct (key_eqb k k'); [discriminate|]. intros H. rewrite IH by exact H. reflexivity.
  Qed.
  Lemma rdel_perm k v t : rget k t = Some v -> Permutation t ((k, v) :: rdel k t).
  Proof.
    induction t as [|[k' v'] t IH]; cbn; [discriminate|].
    destruct (key_eqb_spec k k') as [<-|Hk]; [intros [= ->]; reflexivity|].
    intros H. rewrite (IH H) at 1. apply perm_swap.
  Qed.
  Lemma rreplace_perm k v t : rget k t <> None -> Permutation (rreplace k v t) ((k, v) :: rdel k t).
  Proof.
    induction t as [|[k' v'] t IH]; cbn; [congruence|].
    destruct (key_eqb k k'); [reflexivity|]. intros H. rewrite (IH H). apply perm_swap.
  Qed.
  Lemma rset_perm k v t : Permutation (rset k v t) ((k, v) :: rdel k t).
  Proof.
    unfold rset. destruct (rget k t) eqn:E; [apply rreplace_perm; congruence|].
    rewrite rinsert_perm, rdel_absent by exact E. reflexivity.
  Qed.

  Lemma tkeys_rreplace k v t : tkeys (rreplace k v t) = tkeys t.
  Proof.
    induction t as [|[k' v'] t IH]; cbn; [reflexivity|].
    destruct (key_eqb_spec k k') as [<-|Hk]; cbn; [reflexivity | f_equal; exact IH].
  Qed.

  Lemma in_rdel k t x : In x (rdel k t) -> In x t.
  Proof.
    intros H. destruct (rget k t) eqn:E; [|rewrite rdel_absent in H by exact E; exact H].
    apply (Permutation_in _ (Permutation_sym (rdel_perm _ _ _ E))). right. exact H.
  Qed.
  Lemma in_rset k v t x : In x (rset k v t) -> x = (k, v) \/ In x t.
  Proof.
    intros H. apply (Permutation_in _ (rset_perm k v t)) in H as [H|H]; [left; symmetry; exact H | right; eapply in_rdel; exact H].
  Qed.

  Lemma rget_rreplace k2 k v t :
    rget k2 (rreplace k v t) = if key_eqb k2 k then option_map (fun _ => v) (rget k t) else rget k2 t.
  Proof.
    induction t as [|[k' v'] t IH]; cbn; [destruct (key_eqb k2 k); reflexivity|].
    destruct (key_eqb_spec k k') as [<-|Hk]; cbn; [destruct (key_eqb k2 k); reflexivity|].
    rewrite IH. destruct (key_eqb_spec k2 k) as [->|]; [rewrite (key_eqb_neq _ _ Hk) | destruct (key_eqb k2 k')]; reflexivity.
  Qed.
  Lemma rget_rinsert k2 k v t : rget k t = None ->
    rget k2 (rinsert k v t) = if key_eqb k2 k then Some v else rget k2 t.
  Proof.
    induction t as [|[k' v'] t IH]; cbn; [reflexivity|].
    destruct (key_eqb_spec k k') as [|Hk]; [discriminate|]. intros H.
    destruct (key_ltb k k'); cbn; [reflexivity|]. rewrite (IH H).
    destruct (key_eqb_spec k2 k) as [->|]; [rewrite (key_eqb_neq _ _ Hk) | destruct (key_eqb k2 k')]; reflexivity.
  Qed.
  Lemma rget_rset k2 k v t : rget k2 (rset k v t) = if key_eqb k2 k then Some v else rget k2 t.
  Proof.
    unfold rset. destruct (rget k t) eqn:E; [rewrite rget_rreplace, E | rewrite rget_rinsert by exact E]; reflexivity.
  Qed.
  Lemma rget_rdel k2 k t : NoDup (tkeys t) -> rget k2 (rdel k t) = if key_eqb k2 k then None else rget k2 t.
  Proof.
    induction t as [|[k' v'] t IH]; cbn; intros Hnd; [destruct (key_eqb k2 k); reflexivity|].
    inversion Hnd as [|? ? Hni Hnd']; subst.
    destruct (key_eqb_spec k k') as [<-|Hk]; cbn.
    - destruct (key_eqb_spec k2 k) as [->|]; [apply rget_none_notin; exact Hni | reflexivity].
    - rewrite (IH Hnd'). destruct (key_eqb_spec k2 k) as [->|]; [rewrite (key_eqb_neq _ _ Hk) |]; reflexivity.
  Qed.

  Lemma nodup_rdel k t : NoDup (tkeys t) -> NoDup (tkeys (rdel k t)).
  Proof.
    intros H. destruct (rget k t) eqn:E; [|rewrite rdel_absent by exact E; exact H].
    pose proof (Permutation_NoDup (Permutation_map fst (rdel_perm _ _ _ E)) H) as Hn.
    inversion Hn; assumption.
  Qed.
  Lemma nodup_rset k v t : NoDup (tkeys t) -> NoDup (tkeys (rset k v t)).
  Proof.
    intros H. apply (Permutation_NoDup (Permutation_map fst (Permutation_sym (rset_perm k v t)))).
    constructor; [|apply nodup_rdel; exact H].
    apply rget_none_notin. rewrite (rget_rdel _ _ _ H), key_eqb_refl. reflexivity.
  Qed.
  Lemma tkeys_rset_in k v t x : In x (tkeys (rset k v t)) <-> x = k \/ In x (tkeys t).
  Proof.
    unfold rset. destruct (rget k t) eqn:E.
    - rewrite tkeys_rreplace. split; [auto|]. intros [->|H]; [|exact H].
      apply rget_in in E. apply (in_map fst) in E. exact E.
    - split; intros H.
      + apply (Permutation_in _ (Permutation_map fst (rinsert_perm k v t))) in H as [H|H]; auto.
      + apply (Permutation_in _ (Permutation_map fst (Permutation_sym (rinsert_perm k v t)))). destruct H; [left|right]; auto.
  Qed.

  Variable f : V -> Z.
  Definition tsumf t : Z := fold_right (fun kv acc => f (snd kv) + acc) 0 t.
  Definition foptv (o : option V) : Z := match o with Some v => f v | None => 0 end.
  Lemma tsumf_perm t t' : Permutation t t' -> tsumf t = tsumf t'.
  Proof. unfold tsumf. induction 1; cbn; lia. Qed.
  Lemma tsumf_rdel k t : tsumf (rdel k t) = tsumf t - foptv (rget k t).
  Proof.
    destruct (rget k t) eqn:E; cbn [foptv]; [|rewrite rdel_absent by exact E; lia].
    rewrite (tsumf_perm _ _ (rdel_perm _ _ _ E)). unfold tsumf. cbn [fold_right snd]. lia.
  Qed.
  Lemma tsumf_rset k v t : tsumf (rset k v t) = tsumf t - foptv (rget k t) + f v.
  Proof. rewrite (tsumf_perm _ _ (rset_perm k v t)), <- tsumf_rdel. unfold tsumf. cbn [fold_right snd]. lia. Qed.
  Lemma tsumf_nonneg t : (forall k v, In (k, v) t -> 0 <= f v) -> 0 <= tsumf t.
  Proof.
    unfold tsumf. induction t as [|[k' v'] t IH]; cbn [fold_right snd]; intros H; [lia|].
    specialize (H k' v' (or_introl eq_refl)) as H1. specialize (IH (fun k v Hin => H k v (or_intror Hin))). lia.
  Qed.
End TableLemmas.

Definition asum (d : Z) (cs : coins) : Z :=
  fold_right (fun c acc => (if fst c =? d then snd c else 0) + acc) 0 cs.

Lemma asum_cons d d' x cs : asum d ((d', x) :: cs) = (if d' =? d then x else 0) + asum d cs.
Proof. reflexivity. Qed.

Lemma valid_from_cons lo d x cs :
  coins_valid_from lo ((d, x) :: cs) = true <-> lo < d /\ 0 < x /\ coins_valid_from d cs = true.
Proof. cbn [coins_valid_from]. rewrite !andb_true_iff, !Z.ltb_lt. tauto. Qed.

Lemma amt_coins_add d a b : amt d (coins_add a b) = amt d a + asum d b.
Proof.
  unfold coins_add, amt. revert a. induction b as [|[d' x] b IH]; intros a; cbn [fold_left fst snd]; [cbn; lia|].
  rewrite IH, asum_cons. destruct (Z.eqb_spec d' d) as [->|Hne].
  - rewrite getz_set_same. lia.
  - rewrite getz_set_other; [lia | congruence].
Qed.

Lemma valid_from_below lo cs d : coins_valid_from lo cs = true -> d <= lo -> asum d cs = 0.
Proof.
  revert lo. induction cs as [|[d' x] cs IH]; intros lo Hv Hle; [reflexivity|].
  apply valid_from_cons in Hv as (Hlo & _ & Hv). rewrite asum_cons, (IH d' Hv) by lia.
  destruct (Z.eqb_spec d' d); lia.
Qed.
Lemma valid_from_asum lo cs d : coins_valid_from lo cs = true -> asum d cs = amt d cs /\ 0 <= asum d cs.
Proof.
  revert lo. induction cs as [|[d' x] cs IH]; intros lo Hv; [split; [reflexivity | cbn; lia]|].
  apply valid_from_cons in Hv as (Hlo & Hx & Hv). destruct (IH d' Hv) as [H1 H2].
  rewrite asum_cons. unfold amt, getz in *. cbn [get].
  destruct (Z.ltb_spec d' d) as [Hlt|Hge].
  - destruct (Z.eqb_spec d' d); [lia|]. split; lia.
  - rewrite (valid_from_below d' cs d Hv Hge). destruct (Z.eqb_spec d' d); split; lia.
Qed.
Lemma valid_asum cs d : coins_valid cs = true -> asum d cs = amt d cs.
Proof. intros H. eapply valid_from_asum; exact H. Qed.
Lemma valid_nonneg cs d : coins_valid cs = true -> 0 <= amt d cs.
Proof. intros H. destruct (valid_from_asum _ _ d H). lia. Qed.
Lemma valid_from_elems lo cs c : coins_valid_from lo cs = true -> In c cs -> lo < fst c /\ 0 < snd c.
Proof.
  revert lo. induction cs as [|[d x] cs IH]; intros lo Hv Hin; [destruct Hin|].
  apply valid_from_cons in Hv as (H1 & H2 & Hv). destruct Hin as [<-|Hin]; [cbn; lia|].
  destruct (IH d Hv Hin). lia.
Qed.

Lemma sub_coins_effect cs : forall b a b', sub_coins b a cs = (b', true) ->
  forall a' d, bal b' a' d = bal b a' d - (if a' =? a then asum d cs else 0).
Proof.
  induction cs as [|[d' x] cs IH]; intros b a b' H a' d.
  - cbn in H. injection H as <-. cbn. destruct (a' =? a); lia.
  - cbn [sub_coins] in H. destruct (bal b a d' <? x); [discriminate|].
    rewrite (IH _ _ _ H), bal_set_bal, asum_cons, (Z.eqb_sym d' d).
    destruct (Z.eqb_spec a' a) as [->|]; destruct (Z.eqb_spec d d') as [->|]; cbn [andb]; lia.
Qed.

Lemma asum_nonneg d cs : (forall c, In c cs -> 0 < snd c) -> 0 <= asum d cs.
Proof.
  induction cs as [|[d' x] cs IH]; intros H; [cbn; lia|]. rewrite asum_cons.
  specialize (H (d', x) (or_introl eq_refl)) as Hx. cbn [snd] in Hx.
  specialize (IH (fun c Hc => H c (or_intror Hc))). destruct (d' =? d); lia.
Qed.
(* the debit loop succeeds whenever the account covers the sum per denom; the order of the coins plays no part *)
Lemma sub_coins_ok cs : forall b a, (forall c, In c cs -> 0 < snd c) -> (forall d, asum d cs <= bal b a d) ->
  exists b', sub_coins b a cs = (b', true).
Proof.
  induction cs as [|[d' x] cs IH]; intros b a Hpos Hle; [eexists; reflexivity|]. cbn [sub_coins].
  pose proof (Hle d') as Hd. rewrite asum_cons, Z.eqb_refl in Hd.
  assert (0 <= asum d' cs) by (apply asum_nonneg; intros c Hc; apply Hpos; right; exact Hc).
  destruct (Z.ltb_spec (bal b a d') x); [lia|].
  apply IH; [intros c Hc; apply Hpos; right; exact Hc|].
  intros d. rewrite bal_set_bal, Z.eqb_refl. cbn [andb]. specialize (Hle d). rewrite asum_cons, (Z.eqb_sym d' d) in Hle.
  destruct (Z.eqb_spec d d'); subst; lia.
Qed.

Lemma add_coins_effect cs : forall b a a' d,
  bal (add_coins b a cs) a' d = bal b a' d + (if a' =? a then asum d cs else 0).
Proof.
  unfold add_coins. induction cs as [|[d' x] cs IH]; intros b a a' d; cbn [fold_left fst snd].
  - cbn. destruct (a' =? a); lia.
  - rewrite IH, bal_credit, asum_cons, (Z.eqb_sym d' d).
    destruct (Z.eqb_spec a' a) as [->|]; destruct (Z.eqb_spec d d') as [->|]; cbn [andb]; lia.
Qed.

Lemma send_coins_effect b from to cs b' : send_coins b from to cs = (b', true) ->
  forall a d, bal b' a d = bal b a d - (if a =? from then asum d cs else 0) + (if a =? to then asum d cs else 0).
Proof.
  unfold send_coins. destruct (sub_coins b from cs) as [b1 ok] eqn:E. destruct ok; [|discriminate].
  intros [= <-] a d. rewrite add_coins_effect, (sub_coins_effect _ _ _ _ E). reflexivity.
Qed.
Lemma send_coins_ok b from to cs : coins_valid cs = true -> (forall d, amt d cs <= bal b from d) ->
  exists b', send_coins b from to cs = (b', true).
Proof.
  intros Hv Hle. destruct (sub_coins_ok cs b from) as [b1 E].
  - intros c Hc. eapply valid_from_elems; [exact Hv | exact Hc].
  - intros d. rewrite (valid_asum _ _ Hv). apply Hle.
  - unfold send_coins. rewrite E. eexists; reflexivity.
Qed.

Definition rc (d : Z) (r : drec) : Z := amt d (r_coins r).
Definition rsum (d : Z) (t : table drec) : Z := tsumf (rc d) t.

Record WF (s : disp_state) : Prop := mkWF {
  wf_nodup : NoDup (tkeys (ds_pending s));
  wf_pvalid : forall k r, In (k, r) (ds_pending s) -> coins_valid (r_coins r) = true;
  wf_fvalid : forall k r, In (k, r) (ds_failed s) -> coins_valid (r_coins r) = true;
  wf_blocked : In DISP_MODULE (ds_blocked s)
}.
Definition Escrow (s : disp_state) : Prop :=
  forall d, rsum d (ds_pending s) + rsum d (ds_failed s) <= bal (ds_bank s) DISP_MODULE d.

Definition pc (d : Z) (k : rkey) (t : table drec) : Z := foptv (rc d) (rget k t).
Definition lg (s : disp_state) (k : rkey) : ledger := ledger_of k (ds_ghost s).
Definition Ledger (s : disp_state) : Prop := forall k d,
  amt d (l_owed (lg s k)) = pc d k (ds_pending s) + amt d (l_paid (lg s k)) + amt d (l_failed (lg s k)) /\
  0 <= amt d (l_paid (lg s k)) /\ 0 <= amt d (l_failed (lg s k)).

Definition Inv (s : disp_state) : Prop := WF s /\ Escrow s /\ NoDup (ds_claims s).
Definition LInv (s : disp_state) : Prop := Inv s /\ Ledger s.

(* the escrow survives whatever does not lower the module account *)
Lemma WF_frame s s' : ds_pending s' = ds_pending s -> ds_failed s' = ds_failed s -> ds_blocked s' = ds_blocked s ->
  WF s -> WF s'.
Proof. intros Hp Hf Hb [H1 H2 H3 H4]. constructor; rewrite ?Hp, ?Hf, ?Hb; assumption. Qed.
Lemma Escrow_frame s s' : ds_pending s' = ds_pending s -> ds_failed s' = ds_failed s ->
  (forall d, bal (ds_bank s) DISP_MODULE d <= bal (ds_bank s') DISP_MODULE d) -> Escrow s -> Escrow s'.
Proof. intros Hp Hf Hb He d. rewrite Hp, Hf. specialize (He d). specialize (Hb d). lia. Qed.
Lemma Ledger_frame s s' : ds_pending s' = ds_pending s -> ds_ghost s' = ds_ghost s -> Ledger s -> Ledger s'.
Proof. intros Hp Hg Hl k d. unfold lg. rewrite Hp, Hg. apply Hl. Qed.
Lemma Inv_frame s s' : ds_pending s' = ds_pending s -> ds_failed s' = ds_failed s -> ds_blocked s' = ds_blocked s ->
  ds_claims s' = ds_claims s -> (forall d, bal (ds_bank s) DISP_MODULE d <= bal (ds_bank s') DISP_MODULE d) ->
  Inv s -> Inv s'.
Proof.
  intros Hp Hf Hb Hc Hbal (Hwf & Hesc & Hcl).
  split; [eapply WF_frame; eassumption | split; [eapply Escrow_frame; eassumption | rewrite Hc; exact Hcl]].
Qed.

Lemma rsum_nonneg d t : (forall k r, In (k, r) t -> coins_valid (r_coins r) = true) -> 0 <= rsum d t.
Proof. intros H. apply tsumf_nonneg. intros k r Hin. apply valid_nonneg. eauto. Qed.

Lemma rsum_get_le d t k r : (forall k r, In (k, r) t -> coins_valid (r_coins r) = true) ->
  rget k t = Some r -> rc d r <= rsum d t.
Proof.
  intros Hv Hg. pose proof (tsumf_rdel (rc d) k t) as H. rewrite Hg in H. cbn [foptv] in H.
  assert (0 <= rsum d (rdel k t)) by (apply rsum_nonneg; intros k' r' Hin; apply in_rdel in Hin; eauto).
  unfold rsum in *. lia.
Qed.

Lemma pc_nonneg d k t : (forall k r, In (k, r) t -> coins_valid (r_coins r) = true) -> 0 <= pc d k t.
Proof.
  intros Hv. unfold pc. destruct (rget k t) eqn:E; cbn [foptv]; [|lia].
  apply valid_nonneg. apply rget_in in E. eauto.
Qed.

Lemma ledger_of_rset k0 k l g : ledger_of k0 (rset k l g) = if key_eqb k0 k then l else ledger_of k0 g.
Proof. unfold ledger_of. rewrite rget_rset. destruct (key_eqb k0 k); reflexivity. Qed.

Definition pays (bl : list Z) (k : rkey) : bool := negb (inb Z.eqb (k_rcp k) bl).
Fixpoint sel_sum (bl : list Z) (P : rkey -> bool) (d : Z) (sel : list (rkey * drec)) : Z :=
  match sel with
  | [] => 0
  | (k, r) :: t => (if P k && pays bl k then rc d r else 0) + sel_sum bl P d t
  end.
Definition done_at (h : Z) (r : drec) : drec := r <| r_done := h |>.

Lemma in_del_claim c u t cl : In c (del_claim u t cl) <-> In c cl /\ c <> (u, t).
Proof.
  unfold del_claim. rewrite filter_In, negb_true_iff, <- not_true_iff_false, pair_eqbZ_eq.
  split; intros [H1 H2]; split; auto.
Qed.

Record run_post (s s' : disp_state) (sel : list (rkey * drec)) : Prop := mkRunPost {
  rp_wf : WF s';
  rp_escrow : Escrow s';
  rp_blocked : ds_blocked s' = ds_blocked s;
  rp_height : ds_height s' = ds_height s;
  rp_dists : ds_dists s' = ds_dists s;
  (* the selected records, and only they, leave the pending table *)
  rp_pending_sel : forall k, In k (tkeys sel) -> rget k (ds_pending s') = None;
  rp_pending_other : forall k, ~ In k (tkeys sel) -> rget k (ds_pending s') = rget k (ds_pending s);
  (* each becomes completed (paid) or failed (blocked recipient), with its coins *)
  rp_outcome : forall k r, In (k, r) sel ->
    if pays (ds_blocked s) k
    then rget k (ds_completed s') = Some (done_at (ds_height s) r) /\ rget k (ds_failed s') = rget k (ds_failed s)
    else rget k (ds_failed s') = Some (done_at (ds_height s) r) /\ rget k (ds_completed s') = rget k (ds_completed s);
  rp_tables_other : forall k, ~ In k (tkeys sel) ->
    rget k (ds_completed s') = rget k (ds_completed s) /\ rget k (ds_failed s') = rget k (ds_failed s);
  (* every account receives exactly the coins of its paid records; the module account pays exactly their sum *)
  rp_bal : forall a d, bal (ds_bank s') a d = bal (ds_bank s) a d
      - (if a =? DISP_MODULE then sel_sum (ds_blocked s) (fun _ => true) d sel else 0)
      + sel_sum (ds_blocked s) (fun k => k_rcp k =? a) d sel;
  (* claims: only deletions, and the claim of every paid claim-type record is gone *)
  rp_claims_sub : forall c, In c (ds_claims s') -> In c (ds_claims s);
  rp_claims_del : forall k r, In (k, r) sel -> pays (ds_blocked s) k = true -> supports_claim (k_type k) = true ->
    ~ In (k_rcp k, k_type k) (ds_claims s');
  rp_claims_keep : forall c, In c (ds_claims s) ->
    (forall k r, In (k, r) sel -> pays (ds_blocked s) k = true -> supports_claim (k_type k) = true -> c <> (k_rcp k, k_type k)) ->
    In c (ds_claims s')
}.

(* the escrow covers every pending record, so the payment of a record cannot fail for lack of funds *)
Lemma escrow_can_pay s k r : WF s -> Escrow s -> rget k (ds_pending s) = Some r ->
  exists b, send_coins (ds_bank s) DISP_MODULE (k_rcp k) (r_coins r) = (b, true).
Proof.
  intros Hwf Hesc Hget. apply send_coins_ok; [exact (wf_pvalid s Hwf k r (rget_in _ _ _ Hget))|].
  intros d. specialize (Hesc d). pose proof (rsum_get_le d _ _ _ (wf_pvalid s Hwf) Hget).
  pose proof (rsum_nonneg d _ (wf_fvalid s Hwf)). unfold rc in *. lia.
Qed.

(* Dispensation.pay_record as one term, given the bank [b] after the payment; its branch of a failing send is excluded
   by escrow_can_pay *)
Definition paid (s : disp_state) (k : rkey) (r : drec) (b : bank) : disp_state :=
  let p := pays (ds_blocked s) k in
  let done := done_at (ds_height s) r in
  s <| ds_bank := if p then b else ds_bank s |>
    <| ds_completed := if p then rset k done (ds_completed s) else ds_completed s |>
    <| ds_failed := if p then ds_failed s else rset k done (ds_failed s) |>
    <| ds_pending := rdel k (ds_pending s) |>
    <| ds_claims := if p && supports_claim (k_type k) then del_claim (k_rcp k) (k_type k) (ds_claims s) else ds_claims s |>
    <| ds_ghost := (if p then ghost_pay else ghost_fail) k (r_coins r) (ds_ghost s) |>.

Section OneRecord.
Variables (s : disp_state) (k : rkey) (r : drec) (b : bank).
Hypothesis Hwf : WF s.
Hypothesis Hget : rget k (ds_pending s) = Some r.
Hypothesis Hs : send_coins (ds_bank s) DISP_MODULE (k_rcp k) (r_coins r) = (b, true).
Let Hval : coins_valid (r_coins r) = true := wf_pvalid s Hwf k r (rget_in _ _ _ Hget).
Let p := pays (ds_blocked s) k.

Lemma pay_record_nf : pay_record s (k, r) = paid s k r b.
Proof.
  unfold pay_record, paid, pays. rewrite Hs.
  destruct (inb Z.eqb (k_rcp k) (ds_blocked s)); [reflexivity|]. destruct (supports_claim (k_type k)); reflexivity.
Qed.

Lemma pay_bal a d : bal b a d = bal (ds_bank s) a d
  - (if a =? DISP_MODULE then rc d r else 0) + (if a =? k_rcp k then rc d r else 0).
Proof. rewrite (send_coins_effect _ _ _ _ _ Hs). unfold rc. rewrite (valid_asum _ d Hval). reflexivity. Qed.

Lemma paid_ghost k0 d :
  amt d (l_owed (lg (paid s k r b) k0)) = amt d (l_owed (lg s k0)) /\
  amt d (l_paid (lg (paid s k r b) k0)) = amt d (l_paid (lg s k0)) + (if key_eqb k0 k && p then rc d r else 0) /\
  amt d (l_failed (lg (paid s k r b) k0)) = amt d (l_failed (lg s k0)) + (if key_eqb k0 k && negb p then rc d r else 0).
Proof.
  unfold lg, rc. rewrite <- (valid_asum _ d Hval).
  change (ds_ghost (paid s k r b)) with ((if p then ghost_pay else ghost_fail) k (r_coins r) (ds_ghost s)).
  destruct p; unfold ghost_pay, ghost_fail; rewrite ledger_of_rset.
  all: destruct (key_eqb_spec k0 k) as [->|]; cbn [l_owed l_paid l_failed andb negb]; rewrite ?amt_coins_add; lia.
Qed.

Lemma paid_Ledger : Ledger s ->
  Ledger (paid s k r b) /\
  forall k0 d, amt d (l_paid (lg (paid s k r b) k0)) = amt d (l_paid (lg s k0)) + sel_sum (ds_blocked s) (key_eqb k0) d [(k, r)].
Proof.
  intros Hl. split; intros k0 d; destruct (paid_ghost k0 d) as (Eo & Ep & Ef).
  - destruct (Hl k0 d) as (H1 & H2 & H3). rewrite Eo, Ep, Ef. unfold pc in *.
    change (ds_pending (paid s k r b)) with (rdel k (ds_pending s)). rewrite (rget_rdel _ _ _ (wf_nodup s Hwf)).
    pose proof (valid_nonneg _ d Hval : 0 <= rc d r).
    destruct (key_eqb_spec k0 k) as [->|]; [rewrite Hget in H1|]; cbn [foptv andb] in *; destruct p; cbn [negb]; lia.
  - rewrite Ep. unfold p. cbn [sel_sum]. lia.
Qed.

Lemma paid_post : Escrow s -> run_post s (paid s k r b) [(k, r)].
Proof.
  intros Hesc. pose proof (wf_nodup s Hwf) as Hnd.
  assert (Hoth : forall k0, ~ In k0 (tkeys [(k, r)]) -> key_eqb k0 k = false).
  { intros k0 Hn. apply key_eqb_neq. intros ->. apply Hn. left; reflexivity. }
  constructor; try reflexivity.
  - pose proof Hwf as [_ Hpv Hfv Hbl]. constructor; cbn.
    + apply nodup_rdel; exact Hnd.
    + intros k0 r0 H0. apply in_rdel in H0. eauto.
    + intros k0 r0 H0. destruct (pays (ds_blocked s) k); [eauto|].
      apply in_rset in H0 as [[= _ ->]|H0]; [exact Hval | eauto].
    + exact Hbl.
  - (* a recipient that is paid is not the module account (which is blocked): the payment lowers the escrow by the record *)
    intros d. specialize (Hesc d). cbn -[rsum rc bal]. unfold rsum in *. rewrite tsumf_rdel, Hget. cbn [foptv].
    destruct (pays (ds_blocked s) k) eqn:Ep.
    + rewrite pay_bal, Z.eqb_refl. destruct (Z.eqb_spec DISP_MODULE (k_rcp k)) as [E|]; [|lia].
      unfold pays in Ep. rewrite <- E, (proj2 (inb_spec Z.eqb Z.eqb_eq _ _) (wf_blocked s Hwf)) in Ep. discriminate.
    + rewrite tsumf_rset. change (rc d (done_at (ds_height s) r)) with (rc d r).
      pose proof (pc_nonneg d k _ (wf_fvalid s Hwf)). unfold pc in *. lia.
  - intros k0 [<-|[]]. cbn. rewrite (rget_rdel _ _ _ Hnd), key_eqb_refl. reflexivity.
  - intros k0 Hn. cbn. rewrite (rget_rdel _ _ _ Hnd), (Hoth k0 Hn). reflexivity.
  - intros k0 r0 [[= <- <-]|[]]. cbn. destruct (pays (ds_blocked s) k); rewrite rget_rset, key_eqb_refl; split; reflexivity.
  - intros k0 Hn. cbn. destruct (pays (ds_blocked s) k); rewrite rget_rset, (Hoth k0 Hn); split; reflexivity.
  - intros a d. cbn -[bal rc]. rewrite (Z.eqb_sym (k_rcp k) a).
    destruct (pays (ds_blocked s) k); rewrite ?andb_true_r, ?andb_false_r; [rewrite pay_bal|]; destruct (a =? DISP_MODULE), (a =? k_rcp k); lia.
  - intros c Hc. cbn in Hc. destruct (pays (ds_blocked s) k && supports_claim (k_type k)); [apply in_del_claim in Hc; tauto | exact Hc].
  - intros k0 r0 [[= <- <-]|[]] Hp Hsup. cbn. rewrite Hp, Hsup. cbn [andb]. rewrite in_del_claim. tauto.
  - intros c Hc Hall. cbn. destruct (pays (ds_blocked s) k) eqn:Ep, (supports_claim (k_type k)) eqn:Es; cbn [andb]; try exact Hc.
    apply in_del_claim. split; [exact Hc|]. apply (Hall k r); auto. left; reflexivity.
Qed.
End OneRecord.

Lemma run_post_cons s s1 s' k r sel : ~ In k (tkeys sel) ->
  run_post s s1 [(k, r)] -> run_post s1 s' sel -> run_post s s' ((k, r) :: sel).
Proof.
  (* the fields in the order of the record: wf, escrow, blocked, height, dists, pending_sel, pending_other, outcome,
     tables_other, bal, claims_sub, claims_del, claims_keep; those of the first step carry a 1 *)
  intros Hni [_ _ B1 H1 D1 PS1 PO1 OUT1 TO1 BAL1 CS1 CD1 CK1] [W E B H D PS PO OUT TO BAL CS CD CK].
  assert (Hoth : forall k0, ~ In k0 (tkeys ((k, r) :: sel)) -> ~ In k0 (tkeys [(k, r)]) /\ ~ In k0 (tkeys sel)) by (cbn; tauto).
  rewrite B1, H1 in *.
  constructor; try congruence; auto.
  - intros k0 [<-|Hin]; [rewrite PO by exact Hni; apply PS1; left; reflexivity | apply PS; exact Hin].
  - intros k0 Hn. apply Hoth in Hn as [Hn1 Hn2]. rewrite PO by exact Hn2. apply PO1; exact Hn1.
  - intros k0 r0 [[= <- <-]|Hin].
    + destruct (TO k Hni) as [-> ->]. apply (OUT1 k r). left; reflexivity.
    + assert (Hn : ~ In k0 (tkeys [(k, r)])) by (intros [<-|[]]; apply Hni; apply (in_map fst) in Hin; exact Hin).
      destruct (TO1 k0 Hn) as [TC TF]. specialize (OUT k0 r0 Hin). rewrite TC, TF in OUT. exact OUT.
  - intros k0 Hn. apply Hoth in Hn as [Hn1 Hn2]. destruct (TO k0 Hn2) as [-> ->]. apply TO1; exact Hn1.
  - intros a d. rewrite BAL, BAL1. cbn [sel_sum]. destruct (a =? DISP_MODULE); lia.
  - intros k0 r0 [[= <- <-]|Hin] Hp Hsup Hc; [apply CS in Hc; exact (CD1 k r (or_introl eq_refl) Hp Hsup Hc) | exact (CD k0 r0 Hin Hp Hsup Hc)].
  - intros c Hc Hall. apply CK; [apply CK1; [exact Hc|] |].
    + intros k0 r0 [[= <- <-]|[]]. apply (Hall k r). left; reflexivity.
    + intros k0 r0 Hin. apply (Hall k0 r0). right; exact Hin.
Qed.

Lemma run_fold sel : forall s,
  WF s -> Escrow s -> NoDup (tkeys sel) ->
  (forall k r, In (k, r) sel -> rget k (ds_pending s) = Some r) ->
  let s' := fold_left pay_record sel s in
  run_post s s' sel /\
  (Ledger s -> Ledger s' /\
   forall k0 d, amt d (l_paid (lg s' k0)) = amt d (l_paid (lg s k0)) + sel_sum (ds_blocked s) (key_eqb k0) d sel).
Proof.
  induction sel as [|[k r] sel IH]; intros s Hwf Hesc Hnd Hsel; cbv zeta.
  - split; [|intros Hl; split; [exact Hl | intros; cbn; lia]].
    constructor; auto; cbn; try tauto. intros a d. destruct (a =? DISP_MODULE); lia.
  - cbn [fold_left]. inversion Hnd as [|? ? Hni Hnd']; subst.
    pose proof (Hsel k r (or_introl eq_refl)) as Hget. destruct (escrow_can_pay s k r Hwf Hesc Hget) as (b & Hs).
    rewrite (pay_record_nf _ _ _ _ Hs). set (s1 := paid s k r b). pose proof (paid_post s k r b Hwf Hget Hs Hesc) as P1.
    destruct (IH s1 (rp_wf _ _ _ P1) (rp_escrow _ _ _ P1) Hnd') as [P L].
    { intros k' r' Hin. rewrite (rp_pending_other _ _ _ P1); [apply Hsel; right; exact Hin|].
      intros [<-|[]]. apply Hni. apply (in_map fst) in Hin. exact Hin. }
    split; [apply (run_post_cons _ s1); assumption|].
    intros Hl. destruct (paid_Ledger s k r b Hwf Hget Hl) as [Hl1 Hp1]. destruct (L Hl1) as [Hl' Hp]. split; [exact Hl'|].
    intros k0 d. rewrite Hp, Hp1. change (ds_blocked s1) with (ds_blocked s). cbn [sel_sum]. lia.
Qed.

(* the test of Dispensation.select_records on one entry *)
Definition sel_match (name runner typ : Z) (kr : rkey * drec) : bool :=
  (k_name (fst kr) =? name) && (r_runner (snd kr) =? runner) && (k_type (fst kr) =? typ).

Lemma select_firstn t name runner typ : forall n,
  select_records t name runner typ n = firstn n (filter (sel_match name runner typ) t).
Proof.
  induction t as [|[k r] t IH]; intros [|n]; try reflexivity. cbn [select_records filter].
  unfold sel_match at 1. cbn [fst snd].
  destruct ((k_name k =? name) && (r_runner r =? runner) && (k_type k =? typ)); rewrite IH; reflexivity.
Qed.

Lemma firstn_incl {A} n (l : list A) x : In x (firstn n l) -> In x l.
Proof. intros H. rewrite <- (firstn_skipn n l). apply in_or_app. left. exact H. Qed.
Lemma firstn_nodup {A} n : forall l : list A, NoDup l -> NoDup (firstn n l).
Proof.
  induction n as [|n IH]; intros [|x l] H; cbn; try constructor; inversion H; subst; [|auto].
  intros Hin. apply firstn_incl in Hin. contradiction.
Qed.
Lemma filter_map_nodup {A B} (g : A -> B) (f : A -> bool) l : NoDup (map g l) -> NoDup (map g (filter f l)).
Proof.
  induction l as [|x l IH]; cbn; intros H; [constructor|]. inversion H; subst.
  destruct (f x); cbn; [constructor|]; auto.
  intros Hin. apply in_map_iff in Hin as (y & E & Hy). apply filter_In in Hy as [Hy _].
  rewrite <- E in *. apply (in_map g) in Hy. contradiction.
Qed.

Lemma select_pending s name runner typ n : WF s ->
  let sel := select_records (ds_pending s) name runner typ n in
  (length sel <= n)%nat /\ NoDup (tkeys sel) /\
  forall k r, In (k, r) sel ->
    rget k (ds_pending s) = Some r /\ k_name k = name /\ r_runner r = runner /\ k_type k = typ.
Proof.
  intros Hwf. cbv zeta. rewrite select_firstn. split; [apply firstn_le_length|]. split.
  - unfold tkeys. rewrite <- firstn_map. apply firstn_nodup, filter_map_nodup, Hwf.
  - intros k r Hin. apply firstn_incl, filter_In in Hin as [Hin Hm].
    unfold sel_match in Hm. cbn [fst snd] in Hm. rewrite !andb_true_iff, !Z.eqb_eq in Hm.
    split; [apply in_rget_nodup; [apply Hwf | exact Hin] | tauto].
Qed.

Lemma valid_from_set lo a d v : coins_valid_from lo a = true -> lo < d -> 0 < v -> coins_valid_from lo (set d v a) = true.
Proof.
  revert lo. induction a as [|[k' v'] a IH]; intros lo Hv Hlo Hpos; cbn [set].
  - apply valid_from_cons. auto.
  - apply valid_from_cons in Hv as (H1 & H2 & Hv).
    destruct (Z.ltb_spec k' d); [|destruct (Z.eqb_spec k' d) as [->|]]; rewrite !valid_from_cons; auto.
    repeat split; auto; lia.
Qed.
Lemma coins_add_valid a b : coins_valid a = true -> coins_valid b = true -> coins_valid (coins_add a b) = true.
Proof.
  unfold coins_add. intros Ha Hb.
  assert (Hel : forall c, In c b -> -1 < fst c /\ 0 < snd c) by (intros; eapply valid_from_elems; eauto).
  clear Hb. revert a Ha. induction b as [|c b IH]; intros a Ha; [exact Ha|].
  cbn [fold_left]. apply IH; [intros; apply Hel; right; auto|].
  destruct (Hel c (or_introl eq_refl)). apply valid_from_set; [exact Ha | lia |].
  pose proof (valid_nonneg a (fst c) Ha). unfold amt in *. lia.
Qed.

Definition otot (d : Z) (outs : list (Z * coins)) : Z := fold_right (fun o acc => asum d (snd o) + acc) 0 outs.
Definition outs_valid (outs : list (Z * coins)) : bool := forallb (fun o => coins_valid (snd o)) outs.

Lemma total_output_spec outs : outs_valid outs = true ->
  coins_valid (total_output outs) = true /\ forall d, amt d (total_output outs) = otot d outs.
Proof.
  destruct outs as [|o outs]; [split; reflexivity|].
  cbn [outs_valid forallb total_output]. intros H. apply andb_true_iff in H as [Ho Hr].
  assert (G : forall acc, coins_valid acc = true ->
    coins_valid (fold_left (fun acc o' => coins_add acc (snd o')) outs acc) = true /\
    forall d, amt d (fold_left (fun acc o' => coins_add acc (snd o')) outs acc) = amt d acc + otot d outs).
  { induction outs as [|o' outs IH]; intros acc Hacc; [split; [exact Hacc | intros; cbn; lia]|].
    cbn [forallb] in Hr. apply andb_true_iff in Hr as [Ho' Hr]. cbn [fold_left].
    destruct (IH Hr (coins_add acc (snd o')) (coins_add_valid _ _ Hacc Ho')) as [G1 G2].
    split; [exact G1|]. intros d. rewrite G2, amt_coins_add. cbn [otot fold_right]. fold (otot d outs). lia. }
  destruct (G (snd o) Ho) as [G1 G2]. split; [exact G1|].
  intros d. rewrite G2. cbn [otot fold_right]. fold (otot d outs). rewrite (valid_asum _ _ Ho). lia.
Qed.

Definition outs_for (d : Z) (name typ : Z) (k : rkey) (outs : list (Z * coins)) : Z :=
  fold_right (fun o acc => (if key_eqb (name, typ, fst o) k then asum d (snd o) else 0) + acc) 0 outs.

Lemma create_drops_spec name typ runner outs : forall s s',
  WF s -> outs_valid outs = true -> create_drops s name typ runner outs = Ok s' ->
  WF s' /\
  (ds_bank s' = ds_bank s /\ ds_completed s' = ds_completed s /\ ds_failed s' = ds_failed s /\ ds_claims s' = ds_claims s /\
   ds_blocked s' = ds_blocked s /\ ds_height s' = ds_height s /\ ds_dists s' = ds_dists s) /\
  (forall d, rsum d (ds_pending s') = rsum d (ds_pending s) + otot d outs) /\
  (forall d k, pc d k (ds_pending s') = pc d k (ds_pending s) + outs_for d name typ k outs) /\
  (forall k r, rget k (ds_pending s') = Some r -> rget k (ds_pending s) = Some r \/
               (k_name k = name /\ k_type k = typ /\ r_runner r = runner /\ r_start r = ds_height s /\ r_done r = -1)) /\
  (Ledger s -> Ledger s').
Proof.
  induction outs as [|[rcp cs] outs IH]; intros s s' Hwf Hov H.
  - cbn in H. injection H as <-. split; [exact Hwf|]. split; [repeat split|].
    split; [intros; cbn; lia|]. split; [intros; cbn; lia|]. split; [left; assumption | auto].
  - (* one output: merged into the pending record of its key, [rec], and owed in the ghost ledger *)
    cbn [outs_valid forallb] in Hov. apply andb_true_iff in Hov as [Hcs Hov]. cbn [snd] in Hcs.
    cbn [create_drops] in H. set (k := (name, typ, rcp)) in *.
    set (cs' := match rget k (ds_pending s) with Some old => coins_add cs (r_coins old) | None => cs end) in *.
    destruct (coins_valid cs' && coins_all_positive cs') eqn:Ev; cbn [negb] in H; [|discriminate].
    apply andb_true_iff in Ev as [Ev _].
    set (rec := mkRec cs' runner (ds_height s) (-1)) in *.
    set (s1 := s <| ds_pending := rset k rec (ds_pending s) |> <| ds_ghost := ghost_owe k cs (ds_ghost s) |>) in *.
    assert (Hwf1 : WF s1).
    { destruct Hwf as [Hnd Hpv Hfv Hbl]. constructor; cbn; auto. apply nodup_rset; exact Hnd.
      intros k0 r0 H0. apply in_rset in H0 as [[= _ ->]|H0]; [exact Ev | eauto]. }
    assert (Hrc : forall d, rc d rec = pc d k (ds_pending s) + asum d cs).
    { intros d. unfold rc, pc. cbn [rec r_coins]. unfold cs'. destruct (rget k (ds_pending s)) as [old|] eqn:Eo; cbn [foptv].
      - rewrite amt_coins_add. unfold rc. rewrite (valid_asum cs d Hcs), (valid_asum (r_coins old) d); [lia|].
        exact (wf_pvalid s Hwf _ _ (rget_in _ _ _ Eo)).
      - rewrite (valid_asum cs d Hcs). lia. }
    assert (Hpc1 : forall d k0, pc d k0 (ds_pending s1) = pc d k0 (ds_pending s) + if key_eqb k k0 then asum d cs else 0).
    { intros d k0. unfold pc at 1. change (ds_pending s1) with (rset k rec (ds_pending s)). rewrite rget_rset, (key_eqb_sym k0 k).
      destruct (key_eqb_spec k k0) as [<-|]; cbn [foptv]; [rewrite Hrc | fold (pc d k0 (ds_pending s))]; lia. }
    destruct (IH s1 s' Hwf1 Hov H) as (W & Efr & RS & PC & RUN & LG).
    split; [exact W|]. split; [exact Efr|]. split; [|split; [|split]].
    + intros d. rewrite RS. cbn [otot fold_right snd]. fold (otot d outs).
      change (ds_pending s1) with (rset k rec (ds_pending s)). unfold rsum. rewrite tsumf_rset, Hrc. unfold pc. lia.
    + intros d k0. rewrite PC, Hpc1. cbn [outs_for fold_right fst snd]. fold (outs_for d name typ k0 outs). fold k. lia.
    + intros k0 r0 Hg. destruct (RUN k0 r0 Hg) as [Hold|Hnew]; [|right; exact Hnew].
      change (ds_pending s1) with (rset k rec (ds_pending s)) in Hold. rewrite rget_rset in Hold.
      destruct (key_eqb_spec k0 k) as [->|]; [injection Hold as <-; right; cbn; auto | left; exact Hold].
    + intros Hl. apply LG. intros k0 d. specialize (Hl k0 d). unfold lg in *. rewrite Hpc1.
      change (ds_ghost s1) with (ghost_owe k cs (ds_ghost s)). unfold ghost_owe. rewrite ledger_of_rset, (key_eqb_sym k0 k).
      destruct (key_eqb_spec k k0) as [<-|]; [|rewrite Z.add_0_r; exact Hl].
      cbn [l_owed l_paid l_failed]. rewrite amt_coins_add. lia.
Qed.

Theorem create_distribution_spec s dist name typ runner outs s' :
  WF s -> Escrow s -> dist <> DISP_MODULE ->
  validate_basic (MCreateDist dist name typ runner outs) = true ->
  create_distribution s dist name typ runner outs = Ok s' ->
  (Ledger s -> Ledger s') /\
  WF s' /\ Escrow s' /\
  (forall a d, bal (ds_bank s') a d = bal (ds_bank s) a d
     - (if a =? dist then otot d outs else 0) + (if a =? DISP_MODULE then otot d outs else 0)) /\
  (forall d k, pc d k (ds_pending s') = pc d k (ds_pending s) + outs_for d name typ k outs) /\
  (forall k r, rget k (ds_pending s') = Some r -> rget k (ds_pending s) = Some r \/
               (k_name k = name /\ k_type k = typ /\ r_runner r = runner /\ r_start r = ds_height s /\ r_done r = -1)) /\
  ds_completed s' = ds_completed s /\ ds_failed s' = ds_failed s /\ ds_claims s' = ds_claims s /\
  ds_blocked s' = ds_blocked s /\ ds_height s' = ds_height s /\
  ~ In (name, typ, runner) (ds_dists s) /\ ds_dists s' = (name, typ, runner) :: ds_dists s.
Proof.
  intros Hwf Hesc Hne Hvb H. unfold create_distribution in H.
  cbn [validate_basic] in Hvb. apply andb_true_iff in Hvb as [_ Hov]. fold (outs_valid outs) in Hov.
  destruct (inb triple_eqb (name, typ, runner) (ds_dists s)) eqn:Ed; [discriminate|].
  destruct (send_coins _ dist DISP_MODULE (total_output outs)) as [b ok] eqn:Es. cbn [ds_bank] in Es.
  destruct ok; cbn [negb] in H; [|discriminate].
  destruct (total_output_spec outs Hov) as [Htv Hta].
  set (s1 := s <| ds_dists := (name, typ, runner) :: ds_dists s |> <| ds_bank := b |>) in *.
  destruct (create_drops_spec name typ runner outs s1 s' (WF_frame s s1 eq_refl eq_refl eq_refl Hwf) Hov H) as (W & Efr & RS & PC & RUN & LG).
  destruct Efr as (Hbank & Hcompleted & Hfailed & Hclaims & Hblocked & Hheight & Hdists).
  assert (Hbal : forall a d, bal (ds_bank s') a d = bal (ds_bank s) a d
     - (if a =? dist then otot d outs else 0) + (if a =? DISP_MODULE then otot d outs else 0)).
  { intros a d. rewrite Hbank. unfold s1; cbn [ds_bank set]. rewrite (send_coins_effect _ _ _ _ _ Es), (valid_asum _ d Htv), Hta. reflexivity. }
  assert (Hni : ~ In (name, typ, runner) (ds_dists s)).
  { intros Hin. apply (inb_spec triple_eqb key_eqb_eq) in Hin. congruence. }
  split; [intros Hl; exact (LG (Ledger_frame s s1 eq_refl eq_refl Hl))|]. split; [exact W|]. split.
  - intros d. rewrite Hbal, Z.eqb_refl, RS, Hfailed. change (ds_pending s1) with (ds_pending s). change (ds_failed s1) with (ds_failed s).
    destruct (Z.eqb_spec DISP_MODULE dist); [congruence|]. specialize (Hesc d). lia.
  - split; [exact Hbal|]. split; [exact PC|]. split; [exact RUN|]. split; [exact Hcompleted|]. split; [exact Hfailed|].
    split; [exact Hclaims|]. split; [exact Hblocked|]. split; [exact Hheight|]. split; [exact Hni | exact Hdists].
Qed.

Theorem create_claim_spec s user typ s' :
  create_claim s user typ = Ok s' ->
  ~ In (user, typ) (ds_claims s) /\ s' = s <| ds_claims := (user, typ) :: ds_claims s |>.
Proof.
  unfold create_claim. destruct (inb pair_eqbZ (user, typ) (ds_claims s)) eqn:E; [discriminate|].
  intros [= <-]. split; [|reflexivity]. intros Hin. apply (inb_spec _ pair_eqbZ_eq) in Hin. congruence.
Qed.

Lemma pay_record_claims_nodup s kr : NoDup (ds_claims s) -> NoDup (ds_claims (pay_record s kr)).
Proof.
  intros Hnd. destruct kr as [k r]. unfold pay_record.
  destruct (inb Z.eqb (k_rcp k) (ds_blocked s)); [exact Hnd|].
  destruct (send_coins (ds_bank s) DISP_MODULE (k_rcp k) (r_coins r)) as [b ok]. destruct ok; [|exact Hnd].
  destruct (supports_claim (k_type k)); cbn; [apply NoDup_filter; exact Hnd | exact Hnd].
Qed.
Lemma fold_pay_claims_nodup sel : forall s, NoDup (ds_claims s) -> NoDup (ds_claims (fold_left pay_record sel s)).
Proof. induction sel as [|kr sel IH]; intros s H; [exact H | cbn; apply IH; apply pay_record_claims_nodup; exact H]. Qed.

Lemma handle_both s m s' : Inv s -> signer_of m <> DISP_MODULE -> validate_basic m = true -> handle s m = Ok s' ->
  Inv s' /\ (Ledger s -> Ledger s').
Proof.
  intros (Hwf & Hesc & Hcl) Hsg Hvb H. destruct m as [dist name typ runner outs | runner name typ count | user typ]; cbn [handle signer_of] in *.
  - destruct (create_distribution_spec _ _ _ _ _ _ _ Hwf Hesc Hsg Hvb H) as (L & W & E & _ & _ & _ & _ & _ & CL & _).
    split; [|exact L]. split; [exact W|]. split; [exact E|]. rewrite CL. exact Hcl.
  - injection H as <-. destruct (select_pending s name runner typ (Z.to_nat count) Hwf) as (_ & Hnd & Hsel).
    destruct (run_fold _ s Hwf Hesc Hnd (fun k r Hin => proj1 (Hsel k r Hin))) as [P L].
    split; [|apply L]. split; [apply P|]. split; [apply P|]. apply fold_pay_claims_nodup. exact Hcl.
  - apply create_claim_spec in H as [Hni ->].
    split; [|apply Ledger_frame; reflexivity]. split; [|split].
    + revert Hwf. apply WF_frame; reflexivity.
    + revert Hesc. apply Escrow_frame; [reflexivity | reflexivity | intros; cbn; lia].
    + cbn. constructor; assumption.
Qed.

(* a history: transactions, new blocks, and bank activity of the rest of the chain, which never debits the
   dispensation account (the account has no key; its only debit sites are DistributeDrops and the mint
   controller's pass-through, which credits the same amount first) *)
Inductive hstep :=
| HTx (fee : Z) (m : disp_msg)
| HBlock (h : Z)
| HBank (b : bank).

Definition hstep_ok (s : disp_state) (st : hstep) : Prop :=
  match st with
  | HTx fee m => signer_of m <> DISP_MODULE
  | HBlock _ => True
  | HBank b => forall d, bal (ds_bank s) DISP_MODULE d <= bal b DISP_MODULE d
  end.
Definition hrun1 (s : disp_state) (st : hstep) : disp_state :=
  match st with
  | HTx fee m => fst (deliver s fee m)
  | HBlock h => s <| ds_height := h |>
  | HBank b => s <| ds_bank := b |>
  end.
Fixpoint hist_ok (s : disp_state) (h : list hstep) : Prop :=
  match h with [] => True | st :: h' => hstep_ok s st /\ hist_ok (hrun1 s st) h' end.
Definition hrun (s : disp_state) (h : list hstep) : disp_state := fold_left hrun1 h s.

Lemma step_both s st : Inv s -> hstep_ok s st -> Inv (hrun1 s st) /\ (Ledger s -> Ledger (hrun1 s st)).
Proof.
  intros Hinv Hok. destruct st as [fee m|h|b]; cbn [hrun1 hstep_ok] in *.
  - unfold deliver. destruct (validate_basic m) eqn:Evb; cbn [negb fst]; [|auto].
    set (s0 := s <| ds_bank := credit (ds_bank s) (signer_of m) 0 (- fee) |>).
    assert (H0 : Inv s0 /\ (Ledger s -> Ledger s0)).
    { split; [|apply Ledger_frame; reflexivity]. revert Hinv. apply Inv_frame; try reflexivity.
      intros d. change (ds_bank s0) with (credit (ds_bank s) (signer_of m) 0 (- fee)). rewrite bal_credit.
      destruct (Z.eqb_spec DISP_MODULE (signer_of m)); [congruence | cbn; lia]. }
    destruct (handle s0 m) as [s'| |] eqn:Eh; cbn [fst]; try exact H0.
    destruct (handle_both s0 m s' (proj1 H0) Hok Evb Eh) as [I L]. split; [exact I | intros Hl; apply L, H0, Hl].
  - split; [revert Hinv; apply Inv_frame; try reflexivity; intros; cbn; lia | apply Ledger_frame; reflexivity].
  - split; [revert Hinv; apply Inv_frame; try reflexivity; exact Hok | apply Ledger_frame; reflexivity].
Qed.

Lemma hist_both h : forall s, Inv s -> hist_ok s h -> Inv (hrun s h) /\ (Ledger s -> Ledger (hrun s h)).
Proof.
  induction h as [|st h IH]; intros s Hinv Hok; [auto|].
  destruct Hok as [H1 H2]. cbn [hrun fold_left]. destruct (step_both s st Hinv H1) as [I L].
  destruct (IH _ I H2) as [I' L']. auto.
Qed.
Theorem inv_history h s : Inv s -> hist_ok s h -> Inv (hrun s h).
Proof. intros Hinv Hok. apply hist_both; assumption. Qed.
Theorem linv_history h s : LInv s -> hist_ok s h -> LInv (hrun s h).
Proof. intros [Hinv Hl] Hok. destruct (hist_both h s Hinv Hok) as [I L]. split; auto. Qed.

Definition genesis (b : bank) (blocked : list Z) (h : Z) : disp_state := mkDS b [] [] [] [] [] blocked h [].
Lemma genesis_linv b blocked h : In DISP_MODULE blocked -> (forall d, 0 <= bal b DISP_MODULE d) -> LInv (genesis b blocked h).
Proof.
  intros Hb Hn. split; [split; [|split]|].
  - constructor; cbn; auto; try tauto. constructor.
  - intros d. cbn -[bal]. apply Hn.
  - constructor.
  - intros k d. cbn. lia.
Qed.

Theorem paid_le_owed s k d : LInv s -> amt d (l_paid (lg s k)) <= amt d (l_owed (lg s k)).
Proof.
  intros [(Hwf & _) Hl]. destruct (Hl k d) as (H1 & H2 & H3). pose proof (pc_nonneg d k _ (wf_pvalid s Hwf)). lia.
Qed.
