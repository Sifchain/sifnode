(* C09: the code paths that range over Go maps do not depend on the iteration order: the payout loop through its
   closed form, the pool updates because updates of different pools commute. *)
From Coq Require Import ZArith Lia Bool List Permutation.
From RecordUpdate Require Import RecordUpdate.
From Sif Require Import Base.Outcome Base.Store Base.Bank Model.ClpTypes Model.ClpRewards Model.ClpState Model.ClpHooks
  Model.Determinism Proofs.BankProofs Proofs.PayoutProofs.
Import ListNotations.
Local Open Scope Z_scope.

(* with nothing blocked it is the function the correspondence check runs *)
Lemma transfer_blk_generic ds : forall order b,
  transfer_blk (fun _ => false) (fun a => addr_total a ds) b order = transfer_generic b order ds.
Proof.
  induction order as [|a rest IH]; intros b; cbn [transfer_blk transfer_generic]; [reflexivity|].
  destruct (send b CLP_MODULE a ROWAN (addr_total a ds)); rewrite IH; reflexivity.
Qed.

Fixpoint paid_total (blocked : Z -> bool) (amt : Z -> Z) (order : list Z) : Z :=
  match order with
  | [] => 0
  | a :: rest => (if blocked a then 0 else amt a) + paid_total blocked amt rest
  end.

Lemma paid_total_perm blocked amt l1 l2 : Permutation l1 l2 -> paid_total blocked amt l1 = paid_total blocked amt l2.
Proof. induction 1; cbn [paid_total]; lia. Qed.

Lemma paid_total_nonneg blocked amt l : (forall a, In a l -> 0 <= amt a) -> 0 <= paid_total blocked amt l.
Proof.
  induction l as [|a r IH]; intros H; cbn [paid_total]; [lia|].
  assert (0 <= amt a) by (apply H; left; reflexivity).
  assert (0 <= paid_total blocked amt r) by (apply IH; intros; apply H; right; assumption).
  destruct (blocked a); lia.
Qed.

Ltac ifs_lia := repeat match goal with |- context [if ?c then _ else _] => destruct c end; lia.

(* membership of the failed list is all the later code looks at (pool_after_failures uses inb) *)
Lemma inb_perm a l1 l2 : Permutation l1 l2 -> inb a l1 = inb a l2.
Proof.
  intros Hp. apply eq_iff_eq_true. rewrite !inb_In.
  split; apply Permutation_in; [exact Hp|apply Permutation_sym; exact Hp].
Qed.

Lemma send_succeeds b from to d x : 0 <= x <= bal b from d -> exists b', send b from to d x = Some b'.
Proof.
  intros Hx. unfold send. destruct (Z.ltb_spec x 0); [lia|]. destruct (x =? 0); [eauto|].
  destruct (Z.ltb_spec (bal b from d) x); [lia|eauto].
Qed.

(* closed form: when the module account covers everything that can be paid, no payment fails for lack
   of funds, exactly the blocked recipients fail, and every balance is a function of the SET of recipients *)
Lemma transfer_blk_closed blocked amt : forall order b,
  NoDup order -> ~ In CLP_MODULE order -> (forall a, In a order -> 0 <= amt a) ->
  paid_total blocked amt order <= bal b CLP_MODULE ROWAN ->
  let '(b', failed) := transfer_blk blocked amt b order in
  failed = filter blocked order /\
  (forall a d, bal b' a d = bal b a d
     + (if d =? ROWAN then (if inb a order && negb (blocked a) then amt a else 0)
                           - (if a =? CLP_MODULE then paid_total blocked amt order else 0) else 0)) /\
  (forall d, sup b' d = sup b d).
Proof.
  induction order as [|x rest IH]; intros b Hnd Hclp Hnn Hfunds.
  - cbn. split; [reflexivity|]. split; [|reflexivity]. intros a d. destruct (d =? ROWAN); destruct (a =? CLP_MODULE); lia.
  - cbn [transfer_blk]. inversion Hnd as [|? ? Hnotin Hnd']; subst.
    assert (Hclp' : ~ In CLP_MODULE rest) by (intros H; apply Hclp; right; exact H).
    assert (Hxclp : x <> CLP_MODULE) by (intros ->; apply Hclp; left; reflexivity).
    assert (Hnn' : forall a, In a rest -> 0 <= amt a) by (intros; apply Hnn; right; assumption).
    assert (Hx0 : 0 <= amt x) by (apply Hnn; left; reflexivity).
    pose proof (paid_total_nonneg blocked amt rest Hnn') as Hrest0.
    destruct (blocked x) eqn:Eb; cbn [paid_total] in Hfunds; rewrite Eb in Hfunds.
    + rewrite Z.add_0_l in Hfunds. specialize (IH b Hnd' Hclp' Hnn' Hfunds).
      destruct (transfer_blk blocked amt b rest) as [b' failed]. destruct IH as (Hf & Hb & Hs).
      split; [cbn [filter]; rewrite Eb, Hf; reflexivity|]. split; [|exact Hs].
      intros a d. rewrite Hb. cbn [paid_total inb existsb]. rewrite Eb. fold (inb a rest).
      destruct (d =? ROWAN); [|lia].
      destruct (Z.eqb_spec a x) as [->|Hax]; cbn [orb].
      * rewrite (inb_notin x rest Hnotin), Eb. cbn [andb negb]. ifs_lia.
      * ifs_lia.
    + destruct (send b CLP_MODULE x ROWAN (amt x)) as [b1|] eqn:Es.
      * pose proof (send_effect _ _ _ _ _ _ Es) as (_ & Hb1 & Hs1).
        assert (Hf1 : paid_total blocked amt rest <= bal b1 CLP_MODULE ROWAN).
        { rewrite Hb1. destruct (Z.eqb_spec CLP_MODULE CLP_MODULE); [|congruence]. destruct (Z.eqb_spec ROWAN ROWAN); [|congruence].
          destruct (Z.eqb_spec CLP_MODULE x); [congruence|]. cbn [andb]. lia. }
        specialize (IH b1 Hnd' Hclp' Hnn' Hf1).
        destruct (transfer_blk blocked amt b1 rest) as [b' failed]. destruct IH as (Hf & Hb & Hs).
        split; [cbn [filter]; rewrite Eb; exact Hf|]. split; [|intros d; rewrite Hs; apply Hs1].
        intros a d. rewrite Hb, Hb1. cbn [paid_total inb existsb]. rewrite Eb. fold (inb a rest).
        destruct (Z.eqb_spec d ROWAN) as [->|Hd]; [|rewrite !andb_false_r; lia].
        rewrite !andb_true_r.
        destruct (Z.eqb_spec a x) as [->|Hax]; cbn [orb].
        -- rewrite (inb_notin x rest Hnotin), Eb. cbn [andb negb]. destruct (Z.eqb_spec x CLP_MODULE); [congruence|]. ifs_lia.
        -- ifs_lia.
      * (* cannot happen: the funds are there *)
        destruct (send_succeeds b CLP_MODULE x ROWAN (amt x) ltac:(lia)) as (b1 & Es1). congruence.
Qed.

(* C09: two iteration orders of the recipient map give the same balances, the same supply and the same
   set of failed recipients *)
Lemma transfer_blk_perm blocked amt o1 o2 b :
  Permutation o1 o2 -> NoDup o1 -> ~ In CLP_MODULE o1 -> (forall a, In a o1 -> 0 <= amt a) ->
  paid_total blocked amt o1 <= bal b CLP_MODULE ROWAN ->
  let '(b1, f1) := transfer_blk blocked amt b o1 in
  let '(b2, f2) := transfer_blk blocked amt b o2 in
  (forall a d, bal b1 a d = bal b2 a d) /\ (forall d, sup b1 d = sup b2 d) /\ Permutation f1 f2.
Proof.
  intros Hp Hnd Hclp Hnn Hf.
  pose proof (transfer_blk_closed blocked amt o1 b Hnd Hclp Hnn Hf) as C1.
  assert (Hnd2 : NoDup o2) by (eapply Permutation_NoDup; eassumption).
  assert (Hclp2 : ~ In CLP_MODULE o2) by (intros H; apply Hclp; eapply Permutation_in; [apply Permutation_sym; eassumption|exact H]).
  assert (Hnn2 : forall a, In a o2 -> 0 <= amt a) by (intros a H; apply Hnn; eapply Permutation_in; [apply Permutation_sym; eassumption|exact H]).
  assert (Hf2 : paid_total blocked amt o2 <= bal b CLP_MODULE ROWAN) by (rewrite <- (paid_total_perm blocked amt _ _ Hp); exact Hf).
  pose proof (transfer_blk_closed blocked amt o2 b Hnd2 Hclp2 Hnn2 Hf2) as C2.
  destruct (transfer_blk blocked amt b o1) as [b1 f1]. destruct (transfer_blk blocked amt b o2) as [b2 f2].
  destruct C1 as (F1 & B1 & S1). destruct C2 as (F2 & B2 & S2).
  split; [|split].
  - intros a d. rewrite B1, B2, (inb_perm a _ _ Hp), (paid_total_perm blocked amt _ _ Hp). reflexivity.
  - intros d. rewrite S1, S2. reflexivity.
  - subst. clear -Hp. induction Hp; cbn [filter].
    + constructor.
    + destruct (blocked x); [constructor|]; assumption.
    + destruct (blocked x); destruct (blocked y); try apply Permutation_refl. apply perm_swap.
    + eapply Permutation_trans; eassumption.
Qed.

(* `for _, x := range m { sum += x }` *)
Lemma map_sum_perm l1 l2 : Permutation l1 l2 -> map_sum l1 = map_sum l2.
Proof.
  unfold map_sum. assert (G : forall l acc, fold_left (fun acc (e : Z * Z) => acc + snd e) l acc = acc + fold_left (fun acc e => acc + snd e) l 0).
  { induction l as [|e r IH]; intros acc; cbn [fold_left]; [lia|]. rewrite IH, (IH (0 + snd e)). lia. }
  induction 1; cbn [fold_left]; try lia.
  - rewrite G, (G l' (0 + snd x)). lia.
  - rewrite G, (G l (0 + snd x + snd y)). lia.
Qed.

(* the loops of ClpHooks are instances of pool_updates, up to stores that hold the same value under every key *)
Definition eqv (m1 m2 : store pool) : Prop := forall k, get k m1 = get k m2.

Lemma eqv_upd k f m1 m2 : eqv m1 m2 -> eqv (upd_pool k f m1) (upd_pool k f m2).
Proof. intros H k'. rewrite !get_upd_pool, H, (H k'). reflexivity. Qed.

Lemma pool_updates_eqv f o : forall m1 m2, eqv m1 m2 -> eqv (pool_updates f o m1) (pool_updates f o m2).
Proof.
  unfold pool_updates. induction o as [|e o IH]; intros m1 m2 H; cbn [fold_left]; [exact H|]. apply IH, eqv_upd, H.
Qed.

Lemma upd_pool_comm k1 f1 k2 f2 m : k1 <> k2 -> eqv (upd_pool k1 f1 (upd_pool k2 f2 m)) (upd_pool k2 f2 (upd_pool k1 f1 m)).
Proof.
  intros Hne k. rewrite !get_upd_pool.
  destruct (Z.eqb_spec k k1), (Z.eqb_spec k k2), (Z.eqb_spec k1 k2), (Z.eqb_spec k2 k1); congruence.
Qed.

(* two updates of different pools commute *)
Lemma pool_updates_perm f o1 o2 m :
  Permutation o1 o2 -> NoDup (map fst o1) ->
  forall k, get k (pool_updates f o1 m) = get k (pool_updates f o2 m).
Proof.
  intros Hp. revert m. induction Hp as [|e l l' Hp IH|x y l|l l' l'' H1 IH1 H2 IH2]; intros m Hnd.
  - reflexivity.
  - inversion Hnd; subst. apply (IH (upd_pool (fst e) (f (fst e) (snd e)) m)). assumption.
  - inversion Hnd as [|? ? Hx]; subst. apply (pool_updates_eqv f l), upd_pool_comm.
    intros E. apply Hx. left. exact E.
  - intros k. rewrite (IH1 m Hnd k). apply IH2.
    eapply Permutation_NoDup; [apply Permutation_map; eassumption|exact Hnd].
Qed.

Lemma eqv_upd_id k m : eqv (upd_pool k (fun pl => pl) m) m.
Proof. intros k'. rewrite get_upd_pool. destruct (Z.eqb_spec k' k) as [->|]; [destruct (get k m); reflexivity|reflexivity]. Qed.

Lemma eqv_upd_ext k f g m : (forall pl, f pl = g pl) -> eqv (upd_pool k f m) (upd_pool k g m).
Proof. intros H k'. rewrite !get_upd_pool. destruct (k' =? k); [|reflexivity]. destruct (get k m); cbn; [rewrite H|]; reflexivity. Qed.

Lemma loop_is_pool_updates (g : store pool -> pool_dist -> store pool) (h : pool_dist -> Z * Z) f :
  (forall d m1 m2, eqv m1 m2 -> eqv (g m1 d) (upd_pool (fst (h d)) (f (fst (h d)) (snd (h d))) m2)) ->
  forall ds m1 m2, eqv m1 m2 -> eqv (fold_left g ds m1) (pool_updates f (map h ds) m2).
Proof.
  intros Hstep. unfold pool_updates. induction ds as [|d rest IH]; intros m1 m2 H; cbn [fold_left map]; [exact H|].
  apply IH, Hstep, H.
Qed.

(* DistributeDepthRewards: `for pool, rowan := range poolRowanMap { if rowan == 0 { continue }; ...; SetPool }` *)
Definition rpd_update (asset amt : Z) (pl : pool) : pool := if amt =? 0 then pl else pl <| p_rpd := p_rpd pl + amt |>.

Lemma rewards_loop_is_pool_updates failed : forall ds m1 m2, eqv m1 m2 ->
  eqv (fold_left (fun m d => let '(asset, amt) := pool_after_failures failed d in
                             if amt =? 0 then m else upd_pool asset (fun pl => pl <| p_rpd := p_rpd pl + amt |>) m) ds m1)
      (pool_updates rpd_update (map (pool_after_failures failed) ds) m2).
Proof.
  apply loop_is_pool_updates. intros d m1 m2 H.
  destruct (pool_after_failures failed d) as [asset amt]. cbn [fst snd]. unfold rpd_update.
  destruct (amt =? 0); [|apply eqv_upd; exact H].
  intros k. rewrite (eqv_upd_id asset m2 k). apply H.
Qed.

(* TransferProviderDistribution (LPPD): `for pool, sub := range poolRowanMap { ...; SetPool }` *)
Definition lppd_update (asset sub : Z) (pl : pool) : pool := if p_nb pl <? sub then pl else pl <| p_nb := p_nb pl - sub |>.

Lemma lppd_loop_is_pool_updates failed : forall ds m1 m2, eqv m1 m2 ->
  eqv (fold_left (fun m d => let '(asset, sub) := pool_after_failures failed d in
                             upd_pool asset (fun pl => if p_nb pl <? sub then pl else pl <| p_nb := p_nb pl - sub |>) m) ds m1)
      (pool_updates lppd_update (map (pool_after_failures failed) ds) m2).
Proof.
  apply loop_is_pool_updates. intros d m1 m2 H.
  destruct (pool_after_failures failed d) as [asset sub]. cbn [fst snd]. apply eqv_upd. exact H.
Qed.
