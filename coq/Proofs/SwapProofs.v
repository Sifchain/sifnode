(* C03: calc_swap_result through the rational the code computes (adjusted_q); the swap message read off
   swap_inv / swap_one_inv of ClpSpecs. *)
From Coq Require Import ZArith Lia Bool List QArith Qround Qabs Lqa.
From RecordUpdate Require Import RecordUpdate.
From Sif Require Import Base.Outcome Base.SdkMath Base.Store Base.Bank
  Model.ClpCalc Model.ClpTypes Model.ClpState Model.ClpMsgs Proofs.BankProofs Proofs.ClpInv.
Import ListNotations.
Local Open Scope Z_scope.

Lemma rat_int_quo_floor q : (0 <= q)%Q -> rat_int_quo q = Qfloor q.
Proof.
  destruct q as [n d]. unfold Qle; cbn. intros H. unfold rat_int_quo; cbn.
  rewrite Z.quot_div_nonneg; [reflexivity|lia|lia].
Qed.

Lemma rat_int_quo_bounds q : (0 <= q)%Q ->
  (inject_Z (rat_int_quo q) <= q)%Q /\ (q < inject_Z (rat_int_quo q) + 1)%Q.
Proof.
  intros H. rewrite rat_int_quo_floor by assumption. split; [apply Qfloor_le|].
  pose proof (Qlt_floor q) as Hl. rewrite inject_Z_plus in Hl. exact Hl.
Qed.

(* the rational the code calls "adjusted": x*Y/(X+x) times or divided by (1+r) *)
Definition adjusted_q (to_rowan : bool) (X x Y r : Z) : Q :=
  let raw := Qdiv (Qmult (zq x) (zq Y)) (Qplus (zq X) (zq x)) in
  let pf := Qplus (zq 1) (dec_to_q r) in
  if to_rowan then Qdiv raw pf else Qmult raw pf.

Lemma dec_to_q_nonneg d : 0 <= d -> (0 <= dec_to_q d)%Q.
Proof. intros. unfold dec_to_q, Qle; cbn. lia. Qed.

Lemma adjusted_nonneg tr X x Y r : 0 < X -> 0 < x -> 0 < Y -> 0 <= r -> (0 <= adjusted_q tr X x Y r)%Q.
Proof.
  intros HX Hx HY Hr. unfold adjusted_q.
  assert (Hraw : (0 <= zq x * zq Y / (zq X + zq x))%Q).
  { apply Qle_shift_div_l.
    - unfold zq. rewrite <- inject_Z_plus. rewrite <- (Zlt_Qlt 0). lia.
    - rewrite Qmult_0_l. unfold zq. rewrite <- inject_Z_mult. rewrite <- (Zle_Qle 0). nia. }
  assert (Hpf : (0 < zq 1 + dec_to_q r)%Q).
  { pose proof (dec_to_q_nonneg r Hr). unfold zq. change (inject_Z 1) with 1%Q. lra. }
  destruct tr.
  - apply Qle_shift_div_l; [exact Hpf|]. rewrite Qmult_0_l. exact Hraw.
  - apply Qmult_le_0_compat; [exact Hraw|]. lra.
Qed.

Lemma to_uint_ok z y : to_uint z = Ok y -> y = z /\ 0 <= z.
Proof. apply ck_uint_ok. Qed.

Lemma calc_swap_result_degenerate tr X x Y r f :
  X = 0 \/ x = 0 \/ Y = 0 -> calc_swap_result tr X x Y r f = Ok (0, 0).
Proof.
  intros H. unfold calc_swap_result.
  replace ((X =? 0) || (x =? 0) || (Y =? 0)) with true; [reflexivity|].
  symmetry. rewrite !orb_true_iff, !Z.eqb_eq. tauto.
Qed.

(* away from the degenerate inputs: fee = floor(adjusted * f), output = floor(adjusted) - fee *)
Lemma calc_swap_result_inv tr X x Y r f y fee :
  X <> 0 -> x <> 0 -> Y <> 0 ->
  calc_swap_result tr X x Y r f = Ok (y, fee) ->
  let adj := adjusted_q tr X x Y r in
  fee = rat_int_quo (adj * dec_to_q f)%Q /\ 0 <= fee /\
  0 <= rat_int_quo adj /\ y = rat_int_quo adj - fee /\ 0 <= y.
Proof.
  intros HX Hx HY H adj. unfold calc_swap_result in H.
  apply Z.eqb_neq in HX, Hx, HY. rewrite HX, Hx, HY in H. cbn [orb] in H.
  apply bind_ok_inv in H. destruct H as (a & Ea & H).
  assert (a = adj) as ->.
  { unfold adj, adjusted_q. destruct tr; [unfold qdiv_ck in Ea; destruct (q_is_zero _); [discriminate|]|]; congruence. }
  apply bind_ok_inv in H. destruct H as (fe & Ef & H).
  apply bind_ok_inv in H. destruct H as (ia & Ei & H).
  apply bind_ok_inv in H. destruct H as (y0 & Ey & H). injection H as <- <-.
  apply to_uint_ok in Ef, Ei. apply uint_sub_ok in Ey.
  destruct Ef as (-> & Hf), Ei as (-> & Hi), Ey as (-> & Hy). auto.
Qed.

Lemma calc_swap_result_nonneg tr X x Y r f y fee : calc_swap_result tr X x Y r f = Ok (y, fee) -> 0 <= y.
Proof.
  intros H. destruct (Z.eq_dec X 0) as [HX|HX]; [|destruct (Z.eq_dec x 0) as [Hx|Hx]; [|destruct (Z.eq_dec Y 0) as [HY|HY]]].
  4: exact (proj2 (proj2 (proj2 (proj2 (calc_swap_result_inv _ _ _ _ _ _ _ _ HX Hx HY H))))).
  all: rewrite calc_swap_result_degenerate in H by auto; injection H as <- _; lia.
Qed.

(* C03 upper bound, one leg: output <= adjusted*(1-f) + 1, output >= 0 *)
Lemma calc_swap_result_upper tr X x Y r f y fee :
  0 < X -> 0 < x -> 0 < Y -> 0 <= r -> 0 <= f <= PREC ->
  calc_swap_result tr X x Y r f = Ok (y, fee) ->
  0 <= y /\ 0 <= fee /\
  (inject_Z y <= adjusted_q tr X x Y r * (1 - dec_to_q f) + 1)%Q /\
  (inject_Z y <= adjusted_q tr X x Y r)%Q.
Proof.
  intros HX Hx HY Hr Hf H.
  destruct (calc_swap_result_inv tr X x Y r f y fee ltac:(lia) ltac:(lia) ltac:(lia) H) as (Ef & Hfee & _ & -> & Hy).
  split; [exact Hy|]. split; [exact Hfee|].
  pose proof (adjusted_nonneg tr X x Y r HX Hx HY Hr) as Hadj.
  set (adj := adjusted_q tr X x Y r) in *.
  assert (Hfq : (0 <= dec_to_q f)%Q) by (apply dec_to_q_nonneg; lia).
  destruct (rat_int_quo_bounds adj Hadj) as (A1 & _).
  destruct (rat_int_quo_bounds (adj * dec_to_q f) ltac:(apply Qmult_le_0_compat; assumption)) as (_ & B2).
  rewrite <- Ef in B2. rewrite Zle_Qle in Hfee. change (inject_Z 0) with 0%Q in Hfee.
  unfold Z.sub. rewrite inject_Z_plus, inject_Z_opp.
  set (fq := dec_to_q f) in *. set (ia := inject_Z (rat_int_quo adj)) in *. set (ib := inject_Z fee) in *.
  clearbody fq adj ia ib. split; lra.
Qed.

Definition ind (b : bool) (x : Z) : Z := if b then x else 0.

Lemma swap_settles s sg sent recv amt mn s' emit :
  swap s sg sent recv amt mn = Ok (s', emit) ->
  mn <= emit /\ 0 <= amt /\ 0 <= emit /\
  (forall a' d', bal (cs_bank s') a' d' = bal (cs_bank s) a' d'
      - ind ((a' =? sg) && (d' =? sent)) amt + ind ((a' =? CLP_MODULE) && (d' =? sent)) amt
      - ind ((a' =? CLP_MODULE) && (d' =? recv)) emit + ind ((a' =? sg) && (d' =? recv)) emit) /\
  (forall d', sup (cs_bank s') d' = sup (cs_bank s) d') /\
  cs_lps s' = cs_lps s /\ cs_buckets s' = cs_buckets s /\ cs_params s' = cs_params s.
Proof.
  intros H. destruct (swap_inv _ _ _ _ _ _ _ _ H) as (b1 & b2 & mid & pools1 & (Hb & Hl & Hbk & Hp & _) & _ & (S1 & Hmn & S2) & _).
  apply send_effect in S1, S2. destruct S1 as (Hamt & B1 & U1), S2 as (Hemit & B2 & U2). rewrite Hb.
  split; [exact Hmn|]. split; [exact Hamt|]. split; [exact Hemit|].
  split; [|split; [intros d'; rewrite U2; apply U1|auto]].
  intros a' d'. rewrite B2, B1. reflexivity.
Qed.

Definition moved (p : pool) (dn de : Z) : pool := p <| p_nb := p_nb p + dn |> <| p_eb := p_eb p + de |>.

(* what SwapOne hands to the calculator: the depths including margin liabilities *)
Lemma swap_one_calc tr z sp r f res fee sp' :
  swap_one tr z sp r f = Ok (res, fee, sp') ->
  calc_swap_result tr ((if tr then sp_eb sp + sp_el sp else sp_nb sp + sp_nl sp)) z
                      ((if tr then sp_nb sp + sp_nl sp else sp_eb sp + sp_el sp)) r f = Ok (res, fee).
Proof. intros H. apply swap_one_inv in H. destruct tr; apply H. Qed.

Lemma swap_one_moved p tr z r f res fee sp :
  swap_one tr z (to_spool p) r f = Ok (res, fee, sp) ->
  upd_balances p sp = (if tr then moved p (- res) z else moved p z (- res)) /\
  res < (if tr then p_nb p else p_eb p).
Proof.
  intros H. apply swap_one_inv in H. unfold upd_balances, moved.
  destruct tr; destruct H as (_ & Hlt & _ & _ & _ & -> & _); cbn; rewrite Z.add_opp_r; auto.
Qed.

Lemma leg_moved tr a z pm f pools res pools' :
  leg tr a z pm f pools res pools' ->
  exists p, get a pools = Some p /\
    pools' = set a (if tr then moved p (- res) z else moved p z (- res)) pools /\
    res < (if tr then p_nb p else p_eb p).
Proof. intros (p & fee & sp & Hg & Hs & ->). apply swap_one_moved in Hs. destruct Hs as (-> & Hlt). eauto. Qed.

Lemma direct_route sent recv : sent = ROWAN \/ recv = ROWAN -> negb (sent =? ROWAN) && negb (recv =? ROWAN) = false.
Proof. intros [-> | ->]; cbn; [reflexivity|apply andb_false_r]. Qed.

Lemma swap_pools_single s sg sent recv amt mn s' emit :
  swap s sg sent recv amt mn = Ok (s', emit) ->
  (sent = ROWAN \/ recv = ROWAN) ->
  let a := if recv =? ROWAN then sent else recv in
  exists p, get a (cs_pools s) = Some p /\
    cs_pools s' = set a (if recv =? ROWAN then moved p (- emit) amt else moved p amt (- emit)) (cs_pools s) /\
    emit < (if recv =? ROWAN then p_nb p else p_eb p).
Proof.
  intros H Hroute. destruct (swap_inv _ _ _ _ _ _ _ _ H) as (b1 & b2 & mid & pools1 & _ & (Hfirst & Hleg) & _).
  rewrite (direct_route _ _ Hroute) in Hfirst. destruct Hfirst as (-> & ->). exact (leg_moved _ _ _ _ _ _ _ _ Hleg).
Qed.

Lemma swap_pools_double s sg sent recv amt mn s' emit :
  swap s sg sent recv amt mn = Ok (s', emit) ->
  sent <> ROWAN -> recv <> ROWAN -> sent <> recv ->
  exists mid p1 p2, get sent (cs_pools s) = Some p1 /\ get recv (cs_pools s) = Some p2 /\
    cs_pools s' = set recv (moved p2 mid (- emit)) (set sent (moved p1 (- mid) amt) (cs_pools s)) /\
    mid < p_nb p1 /\ emit < p_eb p2.
Proof.
  intros H Hs Hr Hne. destruct (swap_inv _ _ _ _ _ _ _ _ H) as (b1 & b2 & mid & pools1 & _ & (Hfirst & Hleg) & _).
  apply Z.eqb_neq in Hs, Hr. rewrite Hs, Hr in Hfirst. rewrite Hr in Hleg. cbn [negb andb] in Hfirst.
  apply leg_moved in Hfirst, Hleg. destruct Hfirst as (p1 & G1 & -> & L1), Hleg as (p2 & G2 & -> & L2).
  rewrite get_set_other in G2 by congruence. eauto 10.
Qed.

Lemma deliver_fail_unchanged s fee m :
  snd (deliver s fee m) = false ->
  fst (deliver s fee m) = with_bank s (credit (cs_bank s) (signer_of m) ROWAN (- fee)).
Proof. unfold deliver. destruct (handle _ m); cbn; congruence. Qed.
