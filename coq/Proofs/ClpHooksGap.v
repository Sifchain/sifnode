(* C01 for the per-block processing of x/clp: the epoch payout of the rewards buckets (AfterEpochEnd), and the
   provider-distribution run and the depth rewards of EndBlocker, keep, for every token, the difference between what the
   module account holds and what pools, custody and buckets record; so do chains of transactions and these hooks. *)
From Coq Require Import ZArith Lia Bool List.
From RecordUpdate Require Import RecordUpdate.
From Sif Require Import Base.Outcome Base.SdkMath Base.Store Base.Bank
  Model.ClpCalc Model.ClpTypes Model.ClpState Model.ClpMsgs Model.ClpEpoch Proofs.BankProofs Proofs.ClpInv.
Import ListNotations.
Local Open Scope Z_scope.

Lemma sub_bucket_effect s a amt s1 :
  sub_bucket s a amt = Some s1 ->
  0 <= amt /\ cs_bank s1 = cs_bank s /\ cs_pools s1 = cs_pools s /\ cs_lps s1 = cs_lps s /\ cs_params s1 = cs_params s /\
  (forall d, recorded s1 d = recorded s d - (if d =? a then amt else 0)).
Proof.
  unfold sub_bucket. destruct (get a (cs_buckets s)) as [b|] eqn:Hg; [|discriminate].
  destruct (Z.ltb_spec amt 0); [discriminate|]. destruct (Z.ltb_spec b amt); [discriminate|]. cbn [orb]. intros [= <-].
  repeat split; try reflexivity; try lia. intros d. unfold recorded, rec_native, rec_ext. cbn -[sumf getz get set].
  destruct (Z.eqb_spec d a) as [->|Hne].
  - rewrite getz_set_same. unfold getz. rewrite Hg. lia.
  - rewrite getz_set_other by exact Hne. lia.
Qed.

Lemma pay_wallet_gap s a addr amt d : addr <> CLP_MODULE -> gap (pay_wallet s a addr amt) d = gap s d.
Proof.
  intros Hne. unfold pay_wallet. destruct (sub_bucket s a amt) as [s1|] eqn:Hs; [|reflexivity].
  apply sub_bucket_effect in Hs. destruct Hs as (Hamt & Hb & _ & _ & _ & Hr).
  destruct (send (cs_bank s1) CLP_MODULE addr a amt) as [b|] eqn:Hsend; [|reflexivity].
  apply send_effect in Hsend. destruct Hsend as (_ & Hbal & _).
  unfold gap. rewrite bank_with_bank, recorded_with_bank, Hbal, Hr, Hb.
  rewrite Z.eqb_refl. destruct (Z.eqb_spec CLP_MODULE addr) as [E|_]; [congruence|]. cbn [andb].
  destruct (Z.eqb_spec d a); lia.
Qed.
Lemma pay_wallet_frame s a addr amt :
  cs_pools (pay_wallet s a addr amt) = cs_pools s /\ cs_lps (pay_wallet s a addr amt) = cs_lps s /\ cs_params (pay_wallet s a addr amt) = cs_params s.
Proof.
  unfold pay_wallet. destruct (sub_bucket s a amt) as [s1|] eqn:Hs; [|auto].
  apply sub_bucket_effect in Hs. destruct Hs as (_ & _ & Hp & Hl & Hps & _).
  destruct (send (cs_bank s1) CLP_MODULE addr a amt); auto.
Qed.

Lemma reinvest_spec s a addr amt u s1 u' :
  reinvest s a addr amt u = Ok (s1, u') ->
  s1 = s \/ exists pl pu s2, get a (cs_pools s) = Some pl /\ sub_bucket s a amt = Some s2 /\
                             s1 = set_pool s2 a (pl <| p_units := pu |> <| p_eb := p_eb pl + amt |>).
Proof.
  unfold reinvest. intros H. destruct (get a (cs_pools s)) as [pl|] eqn:Hg; [|injection H as <- _; auto].
  bind_inv H as nd Hnd. bind_inv H as ed Hed.
  destruct (calculate_pool_units _ _ _ _ _ _ _ _) as [[[[pu lpu] st] sw]| |]; try discriminate; [|injection H as <- _; auto].
  bind_inv H as eb' Heb. destruct (sub_bucket s a amt) as [s2|] eqn:Hs; [|injection H as <- _; auto].
  bind_inv H as u2 Hu. injection H as <- _. apply uint_add_ok in Heb. destruct Heb as [-> _]. right. exists pl, pu, s2. auto.
Qed.
Lemma reinvest_gap s a addr amt u s1 u' : reinvest s a addr amt u = Ok (s1, u') -> forall d, gap s1 d = gap s d.
Proof.
  intros H d. destruct (reinvest_spec _ _ _ _ _ _ _ H) as [->|(pl & pu & s2 & Hg & Hs & ->)]; [reflexivity|].
  apply sub_bucket_effect in Hs. destruct Hs as (_ & Hb & Hp & _ & _ & Hr).
  unfold gap. rewrite bank_set_pool, recorded_set_pool, Hp, Hg, Hb, Hr. cbn [fopt]. unfold f_native, f_ext. cbn.
  destruct (d =? ROWAN); destruct (d =? a); lia.
Qed.
Lemma reinvest_params s a addr amt u s1 u' : reinvest s a addr amt u = Ok (s1, u') -> cs_params s1 = cs_params s.
Proof.
  intros H. destruct (reinvest_spec _ _ _ _ _ _ _ H) as [->|(pl & pu & s2 & _ & Hs & ->)]; [reflexivity|].
  apply sub_bucket_effect in Hs. destruct Hs as (_ & _ & _ & _ & Hps & _). exact Hps.
Qed.

Definition no_module_lp (lps : list (Z * lprov)) : Prop := Forall (fun kv => fst kv <> CLP_MODULE) lps.

Lemma pay_all_gap lps : forall s a amts s', no_module_lp lps -> pay_all s a lps amts = Ok s' -> forall d, gap s' d = gap s d.
Proof.
  induction lps as [|[addr l] lps IH]; intros s a amts s' Hn H d; cbn [pay_all] in H; [injection H as <-; reflexivity|].
  destruct amts as [|amt amts]; [injection H as <-; reflexivity|].
  inversion Hn as [|? ? Hne Hrest]; subst. cbn [fst] in Hne.
  destruct (cp_rewards_wallet (cs_params s)).
  - rewrite (IH _ _ _ _ Hrest H d). rewrite gap_set_lp. apply pay_wallet_gap. exact Hne.
  - repeat inv1 H. rewrite (IH _ _ _ _ Hrest H d). rewrite gap_set_lp. eapply reinvest_gap. eassumption.
Qed.

Lemma epoch_asset_gap s a all s' :
  no_module_lp all -> epoch_asset s a all = Ok s' -> forall d, gap s' d = gap s d.
Proof.
  unfold epoch_asset. intros Hn H d.
  assert (Hf : no_module_lp (filter (fun kv => eligible s (snd kv)) all)).
  { unfold no_module_lp in *. apply Forall_forall. intros kv Hin. apply filter_In in Hin. exact (proj1 (Forall_forall _ _) Hn kv (proj1 Hin)). }
  destruct (filter (fun kv => eligible s (snd kv)) all) as [|kv0 rest] eqn:E; [injection H as <-; reflexivity|].
  destruct (get a (cs_buckets s)) as [bucket|]; [|injection H as <-; reflexivity].
  bind_inv H as amts Hamts. bind_inv H as s1 Hpay. pose proof (pay_all_gap _ _ _ _ _ Hf Hpay d) as Hg.
  destruct (get a (cs_pools s1)) as [pl|] eqn:Hgp; [|injection H as <-; exact Hg].
  bind_inv H as rae Hrae. injection H as <-. rewrite <- Hg.
  erewrite (gap_write s1 _ a _ (cs_bank s1) d); [|reflexivity..]. rewrite Hgp. cbn [fopt]. unfold f_native, f_ext. cbn.
  destruct (d =? ROWAN); destruct (d =? a); lia.
Qed.

Lemma epoch_assets_gap order : forall s s',
  Forall (fun kv => no_module_lp (snd kv)) order -> epoch_assets s order = Ok s' -> forall d, gap s' d = gap s d.
Proof.
  induction order as [|[a lps] rest IH]; intros s s' Hn H d; cbn [epoch_assets] in H; [injection H as <-; reflexivity|].
  inversion Hn as [|? ? Hh Hrest]; subst. cbn [snd] in Hh. repeat inv1 H.
  rewrite (IH _ _ Hrest H d). eapply epoch_asset_gap; eassumption.
Qed.

(* the epoch hook pays the buckets out (to wallets, or re-invested into the pools): for every token the module account
   holds exactly as much beyond the recorded amounts as before *)
Theorem after_epoch_end_gap s s' :
  Forall (fun kv => no_module_lp (snd kv)) (cs_lps s) -> after_epoch_end s = Ok s' -> forall d, gap s' d = gap s d.
Proof. unfold after_epoch_end. apply epoch_assets_gap. Qed.

From Sif Require Import Model.ClpRewards Model.ClpHooks Proofs.SdkMathProofs Proofs.PayoutProofs.

(* the amounts of a distribution list that go to the addresses selected by g *)
Definition per_sum (g : Z -> bool) (per : list (Z * Z)) : Z :=
  fold_right (fun e acc => (if g (fst e) then snd e else 0) + acc) 0 per.
(* the payments of a list of pool distributions, as one list *)
Definition ds_per (ds : list pool_dist) : list (Z * Z) := flat_map (fun d => let '(_, per, _) := d in per) ds.

Lemma per_sum_app g a b : per_sum g (a ++ b) = per_sum g a + per_sum g b.
Proof.
  induction a as [|e a IH]; cbn [app per_sum fold_right]; [reflexivity|]. fold (per_sum g (a ++ b)) (per_sum g a). rewrite IH. lia.
Qed.
Lemma fold_per_sum (g : Z -> bool) per : forall acc,
  fold_left (fun acc e => if g (fst e) then acc + snd e else acc) per acc = acc + per_sum g per.
Proof.
  induction per as [|e per IH]; intros acc; cbn [fold_left per_sum fold_right]; [lia|].
  rewrite IH. fold (per_sum g per). destruct (g (fst e)); lia.
Qed.
Lemma fold_ds_per {A} (f : A -> Z * Z -> A) ds : forall acc,
  fold_left (fun acc d => let '(_, per, _) := d in fold_left f per acc) ds acc = fold_left f (ds_per ds) acc.
Proof.
  induction ds as [|[[asset per] tot] ds IH]; intros acc; [reflexivity|]. cbn [fold_left ds_per flat_map].
  rewrite fold_left_app. apply IH.
Qed.
Lemma addr_total_ds a ds : addr_total a ds = per_sum (fun x => x =? a) (ds_per ds).
Proof. unfold addr_total. rewrite fold_ds_per, (fold_per_sum (fun x => x =? a)). lia. Qed.

Lemma per_sum_ext g g' per : (forall e, In e per -> g (fst e) = g' (fst e)) -> per_sum g per = per_sum g' per.
Proof.
  induction per as [|e per IH]; intros H; cbn [per_sum fold_right]; [reflexivity|]. fold (per_sum g per) (per_sum g' per).
  rewrite (H e (or_introl eq_refl)), IH; [reflexivity|]. intros e' He'. apply H. right; exact He'.
Qed.
Lemma per_sum_split g h per : (forall x, g x && h x = false) ->
  per_sum (fun x => g x || h x) per = per_sum g per + per_sum h per.
Proof.
  intros Hd. induction per as [|e per IH]; cbn [per_sum fold_right]; [reflexivity|].
  fold (per_sum (fun x => g x || h x) per) (per_sum g per) (per_sum h per). rewrite IH. specialize (Hd (fst e)).
  destruct (g (fst e)); destruct (h (fst e)); cbn in *; try discriminate; lia.
Qed.
Lemma per_sum_false per : per_sum (fun _ => false) per = 0.
Proof. induction per as [|e per IHp]; cbn [per_sum fold_right]; [reflexivity|]. fold (per_sum (fun _ : Z => false) per). lia. Qed.

Lemma inb_cons x a l : inb x (a :: l) = (x =? a) || inb x l.
Proof. reflexivity. Qed.

Lemma transfer_generic_module order : forall b ds b' failed,
  transfer_generic b order ds = (b', failed) -> NoDup order -> ~ In CLP_MODULE order ->
  bal b' CLP_MODULE ROWAN
  = bal b CLP_MODULE ROWAN - per_sum (fun x => inb x order && negb (inb x failed)) (ds_per ds) /\
  (forall x, In x failed -> In x order).
Proof.
  induction order as [|a rest IH]; intros b ds b' failed H Hnd Hm; cbn [transfer_generic] in H.
  - injection H as <- <-. rewrite per_sum_false. split; [lia|intros x []].
  - inversion Hnd as [|? ? Hnin Hnd']; subst.
    assert (Hm' : ~ In CLP_MODULE rest) by (intros Hc; apply Hm; right; exact Hc).
    assert (Ha : a <> CLP_MODULE) by (intros ->; apply Hm; left; reflexivity).
    pose proof (inb_notin a rest Hnin) as Har.
    destruct (send b CLP_MODULE a ROWAN (addr_total a ds)) as [b1|] eqn:Hs.
    + destruct (IH _ _ _ _ H Hnd' Hm') as (Hb & Hf). split; [|intros x Hx; right; apply Hf; exact Hx].
      assert (Haf : inb a failed = false) by (apply inb_notin; intros Hc; apply Hnin, Hf, Hc).
      apply send_effect in Hs. destruct Hs as (_ & Hbal & _). rewrite Hb, Hbal, addr_total_ds, !Z.eqb_refl.
      destruct (Z.eqb_spec CLP_MODULE a); [congruence|]. cbn [andb].
      rewrite (per_sum_ext (fun x => inb x (a :: rest) && negb (inb x failed))
                           (fun x => (x =? a) || (inb x rest && negb (inb x failed)))).
      * rewrite per_sum_split; [lia|]. intros x. destruct (Z.eqb_spec x a) as [->|]; [rewrite Har|]; reflexivity.
      * intros e _. rewrite inb_cons. destruct (Z.eqb_spec (fst e) a) as [->|]; [rewrite Haf|]; reflexivity.
    + destruct (transfer_generic b rest ds) as [b2 f2] eqn:Hr. injection H as <- <-.
      destruct (IH _ _ _ _ Hr Hnd' Hm') as (Hb & Hf). split; [|intros x [<-|Hx]; [left; reflexivity|right; apply Hf; exact Hx]].
      rewrite Hb. f_equal. apply per_sum_ext. intros e _. rewrite !inb_cons.
      destruct (Z.eqb_spec (fst e) a) as [->|]; [rewrite Har|]; reflexivity.
Qed.

(* an ascending list of addresses: the keys of a store of unit values *)
Definition asc (lo : Z) (l : list Z) : Prop := sorted_from lo (map (fun x => (x, tt)) l).
Lemma insert_sorted_asc x : forall l lo, lo < x -> asc lo l -> asc lo (insert_sorted x l).
Proof.
  unfold asc. induction l as [|y l IH]; intros lo Hlo H; cbn [insert_sorted map sorted_from] in *; [auto|].
  destruct H as [H1 H2]. destruct (Z.ltb_spec x y); [cbn; auto|]. destruct (Z.eqb_spec x y); [cbn; auto|].
  cbn [map sorted_from]. split; [exact H1|]. apply IH; [lia|exact H2].
Qed.
Lemma insert_sorted_in x y : forall l, In y (insert_sorted x l) <-> y = x \/ In y l.
Proof.
  induction l as [|z l IH]; cbn [insert_sorted]; [cbn; intuition|].
  destruct (Z.ltb_spec x z); [cbn; intuition|]. destruct (Z.eqb_spec x z) as [->|]; [cbn; intuition|].
  cbn [In]. rewrite IH. intuition.
Qed.
Lemma asc_nodup lo l : asc lo l -> NoDup l.
Proof. intros H. apply sorted_keys_nodup in H. rewrite map_map, map_id in H. exact H. Qed.
Definition wf_addrs (l : list Z) : Prop := exists lo, asc lo l.
Lemma wf_addrs_insert x l : wf_addrs l -> wf_addrs (insert_sorted x l).
Proof.
  intros [lo H]. exists (Z.min lo x - 1). apply insert_sorted_asc; [lia|]. eapply sorted_from_weaken; [|exact H]. lia.
Qed.
Lemma addrs_inner (per : list (Z * Z)) : forall acc, wf_addrs acc ->
  wf_addrs (fold_left (fun a e => insert_sorted (fst e) a) per acc) /\
  (forall x, In x (fold_left (fun a e => insert_sorted (fst e) a) per acc) <-> In x acc \/ In x (map fst per)).
Proof.
  induction per as [|e per IH]; intros acc Hw; cbn [fold_left map]; [split; [exact Hw|cbn; intuition]|].
  destruct (IH (insert_sorted (fst e) acc) (wf_addrs_insert _ _ Hw)) as [H1 H2]. split; [exact H1|].
  intros x. rewrite H2, insert_sorted_in. cbn [In]. intuition.
Qed.
Definition ds_addrs (ds : list pool_dist) : list Z := map fst (ds_per ds).
Lemma addrs_of_spec ds : NoDup (addrs_of ds) /\ (forall x, In x (addrs_of ds) <-> In x (ds_addrs ds)).
Proof.
  unfold addrs_of. rewrite fold_ds_per. destruct (addrs_inner (ds_per ds) [] (ex_intro _ 0 I)) as [[lo W] I2].
  split; [exact (asc_nodup lo _ W)|]. intros x. rewrite I2. cbn. intuition.
Qed.

Lemma pools_rec_upd k f m d : (forall p, f_ext (f p) = f_ext p) ->
  pools_rec (upd_pool k f m) d
  = pools_rec m d + (if d =? ROWAN then fopt (fun p => f_native (f p) - f_native p) (get k m) else 0).
Proof.
  intros Hf. unfold upd_pool. destruct (get k m) as [p|] eqn:Hg; cbn [fopt]; [|destruct (d =? ROWAN); lia].
  rewrite pools_rec_set, Hg. cbn [fopt]. rewrite Hf. destruct (d =? ROWAN); destruct (d =? k); lia.
Qed.

(* the function that lppd_run (Model/ClpHooks.v) folds over the distributions, written inline there; lppd_run_gap
   identifies the two by conversion *)
Definition lppd_step (failed : list Z) (m : store pool) (d : pool_dist) : store pool :=
  let '(asset, sub) := pool_after_failures failed d in
  upd_pool asset (fun pl => if p_nb pl <? sub then pl else pl <| p_nb := p_nb pl - sub |>) m.
Definition d_asset (d : pool_dist) : Z := let '(a, _, _) := d in a.
Definition d_sub (failed : list Z) (d : pool_dist) : Z := snd (pool_after_failures failed d).
Lemma lppd_step_eq failed m x :
  lppd_step failed m x
  = upd_pool (d_asset x) (fun pl => if p_nb pl <? d_sub failed x then pl else pl <| p_nb := p_nb pl - d_sub failed x |>) m.
Proof. destruct x as [[a per] tot]. reflexivity. Qed.

Lemma per_sum_compl g per : PayoutProofs.asum per = per_sum g per + per_sum (fun x => negb (g x)) per.
Proof.
  induction per as [|e per IH]; cbn [PayoutProofs.asum per_sum fold_right]; [reflexivity|].
  fold (PayoutProofs.asum per) (per_sum g per) (per_sum (fun x => negb (g x)) per). rewrite IH. destruct (g (fst e)); cbn; lia.
Qed.
Lemma per_sum_nonneg g per : Forall (fun e => 0 <= snd e) per -> 0 <= per_sum g per.
Proof.
  induction 1 as [|e per He _ IH]; cbn [per_sum fold_right]; [lia|]. fold (per_sum g per). destruct (g (fst e)); lia.
Qed.

Lemma d_sub_eq failed asset per tot :
  PayoutProofs.asum per = tot -> d_sub failed (asset, per, tot) = per_sum (fun x => negb (inb x failed)) per.
Proof.
  intros E. unfold d_sub. cbn [pool_after_failures snd].
  rewrite (fold_per_sum (fun x => inb x failed)), <- E, (per_sum_compl (fun x => inb x failed) per). ring.
Qed.

Lemma lppd_write_back failed : forall ds m d,
  NoDup (map d_asset ds) ->
  (forall asset per tot, In (asset, per, tot) ds ->
     PayoutProofs.asum per = tot /\ Forall (fun e => 0 <= snd e) per /\ exists pl, get asset m = Some pl /\ tot <= p_nb pl) ->
  pools_rec (fold_left (lppd_step failed) ds m) d
  = pools_rec m d - (if d =? ROWAN then per_sum (fun x => negb (inb x failed)) (ds_per ds) else 0).
Proof.
  induction ds as [|x ds IH]; intros m d Hnd Hall; cbn [fold_left ds_per flat_map]; [cbn; destruct (d =? ROWAN); lia|].
  fold (ds_per ds). cbn [map] in Hnd. inversion Hnd as [|? ? Hnin Hnd']; subst. rewrite per_sum_app, (IH _ d Hnd').
  - destruct x as [[asset per] tot]. destruct (Hall _ _ _ (or_introl eq_refl)) as (E & Hnn & pl & Hg & Hle).
    rewrite lppd_step_eq. cbn [d_asset].
    rewrite pools_rec_upd, Hg, (d_sub_eq failed asset per tot E) by (intros p; destruct (_ <? _); reflexivity).
    pose proof (per_sum_compl (fun x => inb x failed) per) as Hc. pose proof (per_sum_nonneg (fun x => inb x failed) per Hnn).
    cbn beta in Hc. cbn [fopt].
    destruct (Z.ltb_spec (p_nb pl) (per_sum (fun x => negb (inb x failed)) per)); [lia|].
    unfold f_native. cbn. destruct (d =? ROWAN); lia.
  - intros asset' per' tot' Hx'. destruct (Hall _ _ _ (or_intror Hx')) as (E' & Hnn' & pl' & Hg' & Hle').
    split; [exact E'|]. split; [exact Hnn'|]. exists pl'. split; [|exact Hle'].
    rewrite lppd_step_eq, get_upd_pool. destruct (Z.eqb_spec asset' (d_asset x)) as [Ea|_]; [|exact Hg'].
    exfalso. apply Hnin. rewrite <- Ea. exact (in_map d_asset _ _ Hx').
Qed.

Lemma distribution_gap s ds b' failed :
  transfer_generic (cs_bank s) (addrs_of ds) ds = (b', failed) ->
  NoDup (map d_asset ds) -> ~ In CLP_MODULE (ds_addrs ds) ->
  (forall asset per tot, In (asset, per, tot) ds ->
     PayoutProofs.asum per = tot /\ Forall (fun e => 0 <= snd e) per /\ exists pl, get asset (cs_pools s) = Some pl /\ tot <= p_nb pl) ->
  forall d, gap (s <| cs_bank := b' |> <| cs_pools := fold_left (lppd_step failed) ds (cs_pools s) |>) d = gap s d.
Proof.
  intros Ht Hnd Hm Hall d.
  destruct (addrs_of_spec ds) as [Hnd_o Hin_o].
  assert (Hm_o : ~ In CLP_MODULE (addrs_of ds)) by (rewrite Hin_o; exact Hm).
  destruct (transfer_generic_module _ _ _ _ _ Ht Hnd_o Hm_o) as [Hbal _].
  rewrite (per_sum_ext _ (fun x => negb (inb x failed))) in Hbal.
  2:{ intros e He. rewrite (proj2 (inb_In (fst e) (addrs_of ds))); [reflexivity|]. apply Hin_o. apply in_map. exact He. }
  unfold gap. rewrite !recorded_eq. cbn -[pools_rec getz bal Z.eqb]. rewrite (lppd_write_back failed ds (cs_pools s) d Hnd Hall).
  destruct (Z.eqb_spec d ROWAN) as [->|Hne]; [rewrite Hbal; lia|].
  rewrite (transfer_generic_denoms _ _ _ _ _ CLP_MODULE d Ht Hne). lia.
Qed.

Lemma round_rate_le rate nb : 0 <= rate <= PREC -> 0 <= nb -> dec_round_int (dec_mul rate (dec_of_int nb)) <= nb.
Proof.
  intros Hr Hn. pose proof PREC_pos. rewrite dec_mul_of_int_r by lia.
  pose proof (dec_round_bounds (rate * nb) ltac:(nia)) as [_ Hb]. nia.
Qed.

Definition lppd_ready (s : clp_state) : Prop :=
  wf (cs_pools s) /\
  forall a pl, In (a, pl) (cs_pools s) -> lps_of a (cs_lps s) <> [] ->
    0 <= p_nb pl /\ 0 < p_units pl /\ Forall (fun l => 0 <= snd l /\ fst l <> CLP_MODULE) (lps_of a (cs_lps s)).

(* the collected list: the pools that have providers, in store order, each with its distribution *)
Lemma lppd_collect_eq s rate :
  lppd_collect s rate =
  map (fun kv => let '(per, tot) := collect_provider_distribution (dec_of_int (p_nb (snd kv))) rate (p_units (snd kv))
                                      (lps_of (fst kv) (cs_lps s)) in (fst kv, per, tot))
      (filter (fun kv => match lps_of (fst kv) (cs_lps s) with [] => false | _ => true end) (cs_pools s)).
Proof.
  unfold lppd_collect. induction (cs_pools s) as [|kv m IH]; [reflexivity|]. cbn [fold_right filter]. rewrite IH.
  destruct (lps_of (fst kv) (cs_lps s)) eqn:El; [reflexivity|]. cbn [map]. rewrite El.
  destruct (collect_provider_distribution _ _ _ _); reflexivity.
Qed.
Lemma nodup_keys_filter {V} (P : Z * V -> bool) (m : store V) : NoDup (map fst m) -> NoDup (map fst (filter P m)).
Proof.
  induction m as [|kv m IH]; intros H; [exact H|]. cbn [map] in H. inversion H as [|? ? Hnin Hnd]; subst.
  cbn [filter]. destruct (P kv); [|exact (IH Hnd)]. cbn [map]. constructor; [|exact (IH Hnd)].
  intros Hc. apply Hnin. apply in_map_iff in Hc. destruct Hc as (x & E & Hx). apply filter_In in Hx. apply in_map_iff. exists x. tauto.
Qed.

Lemma lppd_collect_spec s rate : lppd_ready s -> 0 <= rate <= PREC ->
  let ds := lppd_collect s rate in
  NoDup (map d_asset ds) /\ ~ In CLP_MODULE (ds_addrs ds) /\
  (forall asset per tot, In (asset, per, tot) ds ->
     PayoutProofs.asum per = tot /\ Forall (fun e => 0 <= snd e) per /\ exists pl, get asset (cs_pools s) = Some pl /\ tot <= p_nb pl).
Proof.
  intros [[lo Hs] Hr] Hrate. cbv zeta.
  assert (Hel : forall asset per tot, In (asset, per, tot) (lppd_collect s rate) ->
     PayoutProofs.asum per = tot /\ Forall (fun e => 0 <= snd e) per /\ ~ In CLP_MODULE (map fst per) /\
     exists pl, get asset (cs_pools s) = Some pl /\ tot <= p_nb pl).
  { rewrite lppd_collect_eq. intros asset per tot Hi. apply in_map_iff in Hi. destruct Hi as ([a pl] & E & Hi).
    apply filter_In in Hi. destruct Hi as [Hi HP]. cbn [fst snd] in E, HP.
    destruct (Hr a pl Hi ltac:(intros Hc; rewrite Hc in HP; discriminate)) as (Hnb & Hpu & Hlps).
    pose proof (collect_provider_distribution_spec (dec_of_int (p_nb pl)) rate (p_units pl) (lps_of a (cs_lps s))
                  ltac:(unfold dec_of_int; pose proof PREC_pos; nia) (proj1 Hrate) Hpu
                  ltac:(eapply Forall_impl; [|exact Hlps]; intros ? [? _]; assumption)) as Hspec.
    cbv zeta in Hspec. destruct (collect_provider_distribution _ _ _ _) as [per' tot']. injection E as <- <- <-.
    destruct Hspec as ((Ht0 & Htle) & Hsum & Hmap & HF2). split; [exact Hsum|]. split; [|split].
    - clear - HF2. induction HF2 as [|l o ls os [Ho _] _ IHf]; constructor; assumption.
    - rewrite Hmap. intros Hin. apply in_map_iff in Hin. destruct Hin as (l & El & Hl).
      exact (proj2 (proj1 (Forall_forall _ _) Hlps l Hl) El).
    - exists pl. split; [exact (in_get _ _ _ (ex_intro _ lo Hs) Hi)|]. pose proof (round_rate_le rate (p_nb pl) Hrate Hnb). lia. }
  split; [|split].
  - rewrite lppd_collect_eq, map_map.
    rewrite (map_ext _ fst) by (intros kv; destruct (collect_provider_distribution _ _ _ _); reflexivity).
    apply nodup_keys_filter. exact (sorted_keys_nodup lo _ Hs).
  - intros Hin. apply in_map_iff in Hin. destruct Hin as (e & Ee & He). apply in_flat_map in He.
    destruct He as ([[asset per] tot] & Hx & He). destruct (Hel _ _ _ Hx) as (_ & _ & Hno & _).
    apply Hno. rewrite <- Ee. apply in_map. exact He.
  - intros asset per tot Hi. destruct (Hel _ _ _ Hi) as (A & B & _ & C). auto.
Qed.

Theorem lppd_run_gap s s' :
  lppd_ready s -> Forall (fun p => 0 <= pd_rate p <= PREC) (cs_lppd_periods s) ->
  lppd_run s = Ok s' -> forall d, gap s' d = gap s d.
Proof.
  unfold lppd_run. intros Hready Hrates H d.
  destruct (find_lppd (cs_height s) (cs_lppd_periods s)) as [p|] eqn:Hf; [|injection H as <-; reflexivity].
  assert (Hrate : 0 <= pd_rate p <= PREC).
  { clear - Hf Hrates. induction (cs_lppd_periods s) as [|q qs IH]; [discriminate|]. cbn [find_lppd] in Hf. inversion Hrates; subst.
    destruct ((pd_start q <=? cs_height s) && (cs_height s <=? pd_end q)); [injection Hf as <-; assumption|apply IH; assumption]. }
  bind_inv H as isd Hisd. destruct isd; cbn [negb] in H; [|injection H as <-; reflexivity].
  destruct (transfer_generic (cs_bank s) _ _) as [b' failed] eqn:Ht. injection H as <-.
  destruct (lppd_collect_spec s (pd_rate p) Hready Hrate) as (C1 & C2 & C3).
  exact (distribution_gap s _ b' failed Ht C1 C2 C3 d).
Qed.

From Sif Require Import Proofs.RewardsProofs.

Lemma pools_rec_add_all ts : forall m d,
  (forall t, In t ts -> get (fst t) m <> None) ->
  pools_rec (fold_left (fun m t => add_rewards_to_pool (fst t) (snd t) m) ts m) d
  = pools_rec m d + (if d =? ROWAN then PayoutProofs.asum ts else 0).
Proof.
  induction ts as [|t ts IH]; intros m d Hall; cbn [fold_left PayoutProofs.asum fold_right]; [destruct (d =? ROWAN); lia|].
  fold (PayoutProofs.asum ts). unfold add_rewards_to_pool at 2. rewrite IH.
  - rewrite pools_rec_upd by (intros p; reflexivity).
    destruct (get (fst t) m) as [p|] eqn:Hg; [|exfalso; exact (Hall t (or_introl eq_refl) Hg)].
    cbn [fopt]. unfold f_native. cbn. destruct (d =? ROWAN); lia.
  - intros t' Ht'. rewrite get_upd_pool. destruct (fst t' =? fst t); [|apply Hall; right; exact Ht'].
    destruct (get (fst t) m) eqn:Hg; [discriminate|destruct (Hall t (or_introl eq_refl) Hg)].
Qed.

(* distribution mode: when every rewarded pool has providers, the pools are left as they are and only lists are built *)
Lemma collect_all_tuples (lpss : store (store lprov)) ts : forall m ds,
  (forall t, In t ts -> get (fst t) m <> None -> lps_of (fst t) lpss <> []) ->
  fst (fold_left (fun (acc : store pool * list pool_dist) (t : Z * Z) =>
      let '(m, ds) := acc in
      match get (fst t) m with
      | None => acc
      | Some pl =>
        match lps_of (fst t) lpss with
        | [] => (add_rewards_to_pool (fst t) (snd t) m, ds)
        | lps => let '(per, tot) := collect_provider_distribution (dec_of_int (snd t)) PREC (p_units pl) lps in
                 (m, ds ++ [(fst t, per, tot)])
        end
      end) ts (m, ds)) = m.
Proof.
  induction ts as [|t ts IH]; intros m ds Hall; cbn [fold_left]; [reflexivity|].
  destruct (get (fst t) m) as [pl|] eqn:Hg.
  - destruct (lps_of (fst t) lpss) as [|l0 lrest] eqn:El.
    + exfalso. apply (Hall t (or_introl eq_refl)); [rewrite Hg; discriminate|exact El].
    + destruct (collect_provider_distribution _ _ _ _) as [per tot]. apply IH. intros t' Ht'. apply Hall. right; exact Ht'.
  - apply IH. intros t' Ht'. apply Hall. right; exact Ht'.
Qed.

Lemma pools_rec_rpd_all ds failed : forall m d,
  pools_rec (fold_left (fun m x =>
        let '(asset, amt) := pool_after_failures failed x in
        if amt =? 0 then m else upd_pool asset (fun pl => pl <| p_rpd := p_rpd pl + amt |>) m) ds m) d = pools_rec m d.
Proof.
  induction ds as [|x ds IH]; intros m d; cbn [fold_left]; [reflexivity|]. rewrite IH.
  destruct (pool_after_failures failed x) as [asset amt]. destruct (amt =? 0); [reflexivity|].
  rewrite pools_rec_upd by (intros p; reflexivity).
  destruct (get asset m); cbn [fopt]; unfold f_native; cbn; destruct (d =? ROWAN); lia.
Qed.
Lemma get_reset (m : store pool) d :
  get d (map (fun kv => (fst kv, (snd kv) <| p_rpd := 0 |>)) m) = option_map (fun p => p <| p_rpd := 0 |>) (get d m).
Proof.
  induction m as [|[k p] m IH]; [reflexivity|]. cbn [map get fst snd]. destruct (k <? d); [exact IH|]. destruct (k =? d); reflexivity.
Qed.
Lemma pools_rec_reset (m : store pool) d : pools_rec (map (fun kv => (fst kv, (snd kv) <| p_rpd := 0 |>)) m) d = pools_rec m d.
Proof.
  unfold pools_rec. rewrite get_reset. f_equal; [|destruct (get d m); reflexivity].
  destruct (d =? ROWAN); [|reflexivity]. unfold sumf. induction m as [|[k p] m IH]; [reflexivity|].
  cbn [map fold_right fst snd]. rewrite IH. reflexivity.
Qed.

Lemma collect_tuples_assets raws : forall remaining t, In t (fst (collect_tuples raws remaining)) -> In (fst t) (map fst raws).
Proof.
  induction raws as [|[a raw] rest IH]; intros remaining t; cbn [collect_tuples]; [intros []|].
  destruct (remaining =? 0); [intros []|]. destruct (raw =? 0); [intros H; right; eapply IH; exact H|].
  destruct (collect_tuples rest (remaining - (if remaining <? raw then remaining else raw))) as [ts tot] eqn:E. cbn [fst].
  intros [<-|H]; [left; reflexivity|right]. apply (IH (remaining - (if remaining <? raw then remaining else raw))). rewrite E. exact H.
Qed.
Definition rewards_ready (s : clp_state) : Prop :=
  wf (cs_pools s) /\ pools_wf (cs_pools s) /\ Forall period_wf (cs_reward_periods s) /\ 0 <= cs_accu s /\
  0 <= bal (cs_bank s) CLP_MODULE ROWAN /\
  (* every pool has providers (C02: its units are the sum of theirs), none of them the module account *)
  (forall a, get a (cs_pools s) <> None -> lps_of a (cs_lps s) <> []).

Lemma distribute_depth_rewards_gap s bd p s' minted burned :
  rewards_ready s -> period_wf p -> 0 <= bd ->
  distribute_depth_rewards s bd p = Ok (s', minted, burned) -> forall d, gap s' d = gap s d.
Proof.
  intros ([lo Hs] & Hpw & _ & _ & Hbal & Hlps) Hp Hbd H d. unfold distribute_depth_rewards in H.
  destruct (Z.eqb_spec bd 0); [injection H as <- _ _; reflexivity|].
  set (td := total_depth (cs_pools s) p) in *.
  set (pools0 := if cs_height s =? rp_start p then map (fun kv => (fst kv, (snd kv) <| p_rpd := 0 |>)) (cs_pools s) else cs_pools s) in *.
  assert (P0 : pools_rec pools0 d = pools_rec (cs_pools s) d) by (unfold pools0; destruct (_ =? _); [apply pools_rec_reset|reflexivity]).
  assert (K0 : forall k, get k pools0 = None <-> get k (cs_pools s) = None).
  { intros k. unfold pools0. destruct (_ =? _); [rewrite get_reset; destruct (get k (cs_pools s)); cbn; split; congruence|reflexivity]. }
  assert (F0 : map fst pools0 = map fst (cs_pools s)) by (unfold pools0; destruct (_ =? _); [rewrite map_map|]; reflexivity).
  assert (W0 : pools_wf pools0) by (unfold pools0; destruct (_ =? _); [apply map_reset_wf|]; exact Hpw).
  destruct (Z.leb_spec td 0).
  { injection H as <- _ _. unfold gap. rewrite !recorded_eq. cbn -[pools_rec getz bal]. rewrite P0. reflexivity. }
  pose proof (collect_tuples_le (raw_distributions pools0 p td bd) bd Hbd (raw_distributions_nonneg pools0 p td bd Hp W0 ltac:(lia) Hbd)) as (Hle & _ & Hsum).
  pose proof (collect_tuples_assets (raw_distributions pools0 p td bd) bd) as Hassets.
  destruct (collect_tuples (raw_distributions pools0 p td bd) bd) as [tuples to_mint]. cbn [fst snd] in *.
  assert (Hex : forall t, In t tuples -> get (fst t) pools0 <> None).
  { intros t Ht Hc. apply K0 in Hc. revert Hc. apply (in_keys_get _ _ (ex_intro _ lo Hs)). rewrite <- F0.
    specialize (Hassets t Ht). unfold raw_distributions in Hassets. rewrite map_map in Hassets. exact Hassets. }
  destruct (mint_effect (cs_bank s) CLP_MODULE ROWAN to_mint) as [Hmint _].
  destruct (rp_distribute p); cbn [negb] in H.
  - (* distribution to the providers' wallets: every rewarded pool has providers, so the pools are left as they are *)
    assert (Hhave : forall t, In t tuples -> get (fst t) pools0 <> None -> lps_of (fst t) (cs_lps s) <> []).
    { intros t _ Hg. apply Hlps. intros Hc. apply Hg, K0, Hc. }
        match type of H with context [fold_left ?step tuples ?start] =>
      destruct (fold_left step tuples start) as [pools1 ds] eqn:Efold end.
    assert (Hsame : pools1 = pools0)
      by (change pools1 with (fst (pools1, ds)); rewrite <- Efold; exact (collect_all_tuples (cs_lps s) tuples pools0 [] Hhave)).
    subst pools1. change (cs_bank (s <| cs_pools := pools0 |>)) with (cs_bank s) in *.
    revert H. destruct (transfer_generic _ _ ds) as [b2 failed] eqn:Et. intros H.
    destruct (Z.ltb_spec (bal b2 CLP_MODULE ROWAN - bal (cs_bank s) CLP_MODULE ROWAN) 0); [discriminate|].
    (* the burn can only fail for lack of funds, and the module account holds at least what it held before *)
    destruct (burn_some b2 CLP_MODULE ROWAN (bal b2 CLP_MODULE ROWAN - bal (cs_bank s) CLP_MODULE ROWAN) ltac:(lia)) as [b3 Eb].
    rewrite Eb in H. injection H as <- _ _. apply burn_effect in Eb. destruct Eb as [Hb _].
    unfold gap. rewrite !recorded_eq. cbn -[pools_rec getz bal Z.eqb]. rewrite pools_rec_rpd_all, P0, Hb.
    destruct (Z.eqb_spec d ROWAN) as [->|Hne]; [rewrite !Z.eqb_refl; cbn [andb]; lia|]. rewrite andb_false_r.
    rewrite (transfer_generic_denoms _ _ _ _ _ CLP_MODULE d Et Hne), Hmint.
    destruct (Z.eqb_spec d ROWAN); [contradiction|]. rewrite andb_false_r. lia.
  -     injection H as <- _ _. unfold gap. rewrite !recorded_eq. cbn -[pools_rec getz bal Z.eqb].
    rewrite (pools_rec_add_all tuples pools0 d Hex), P0, Hmint. unfold PayoutProofs.asum.
    rewrite Hsum. destruct (Z.eqb_spec d ROWAN) as [->|Hne]; [rewrite !Z.eqb_refl; cbn [andb]; lia|]. rewrite andb_false_r. lia.
Qed.

Theorem rewards_run_gap s s' minted burned :
  rewards_ready s -> rewards_run s = Ok (s', minted, burned) -> forall d, gap s' d = gap s d.
Proof.
  intros Hready H d. apply rewards_run_inv in H.
  destruct (find_period (cs_height s) (cs_reward_periods s)) as [p0|] eqn:Hf; [|injection H as <- _ _; reflexivity].
  destruct (rp_alloc p0 =? 0); [injection H as <- _ _; reflexivity|]. cbv zeta in H.
  destruct H as (Hbd & isd & _ & H). destruct isd; [|injection H as -> _ _; reflexivity].
  destruct H as (s1 & Hd & ->).
  assert (Hp : period_wf (norm_period p0)).
  { apply period_wf_norm. destruct Hready as (_ & _ & Hps & _).
    exact (proj1 (Forall_forall _ _) Hps _ (proj1 (find_period_In _ _ _ Hf))). }
  rewrite <- (distribute_depth_rewards_gap s _ _ _ _ _ Hready Hp Hbd Hd d). reflexivity.
Qed.

Theorem end_block_gap s s' minted burned :
  lppd_ready s -> Forall (fun p => 0 <= pd_rate p <= PREC) (cs_lppd_periods s) ->
  (forall s1, lppd_run s = Ok s1 -> rewards_ready s1) ->
  end_block s = Ok (s', minted, burned) -> forall d, gap s' d = gap s d.
Proof.
  intros Hl Hr Hnext H d. unfold end_block in H. bind_inv H as s1 Hlp.
  rewrite (rewards_run_gap s1 s' minted burned (Hnext s1 Hlp) H d). exact (lppd_run_gap s s1 Hl Hr Hlp d).
Qed.

Inductive chain_step :=
| CTx (fee : Z) (m : clp_msg)       (* a delivered transaction *)
| CEndBlock                         (* x/clp EndBlocker: provider distribution, then depth rewards *)
| CEpochEnd                         (* the epoch hook: rewards buckets paid out *)
| CNextBlock.                       (* the height advances *)
(* a hook that fails leaves the state of the block as it was (the model's Err / Panic outcomes are observed separately) *)
Definition chain_apply (s : clp_state) (st : chain_step) : clp_state :=
  match st with
  | CTx fee m => fst (deliver s fee m)
  | CEndBlock => match end_block s with Ok (s', _, _) => s' | _ => s end
  | CEpochEnd => match after_epoch_end s with Ok s' => s' | _ => s end
  | CNextBlock => s <| cs_height := cs_height s + 1 |>
  end.
Definition step_ready (s : clp_state) (st : chain_step) : Prop :=
  match st with
  | CTx _ m => good s /\ signer_of m <> CLP_MODULE
  | CEndBlock => lppd_ready s /\ Forall (fun p => 0 <= pd_rate p <= PREC) (cs_lppd_periods s) /\
                 (forall s1, lppd_run s = Ok s1 -> rewards_ready s1)
  | CEpochEnd => Forall (fun kv => no_module_lp (snd kv)) (cs_lps s)
  | CNextBlock => True
  end.
Fixpoint chain_ready (s : clp_state) (steps : list chain_step) : Prop :=
  match steps with
  | [] => True
  | st :: rest => step_ready s st /\ chain_ready (chain_apply s st) rest
  end.
Definition no_decommission (st : chain_step) : bool := match st with CTx _ m => negb (is_decommission m) | _ => true end.

Lemma chain_apply_gap s st : step_ready s st ->
  forall d, gap s d <= gap (chain_apply s st) d /\ (no_decommission st = true -> gap (chain_apply s st) d = gap s d).
Proof.
  intros Hr d. destruct st as [fee m| | |]; cbn [chain_apply step_ready no_decommission] in *.
  - destruct Hr as [[Hwf Hc] Hsg]. destruct (deliver_gap s fee m Hsg Hwf Hc d) as [H1 H2]. split; [exact H1|].
    intros Hn. apply H2. destruct (is_decommission m); [discriminate|reflexivity].
  - destruct Hr as (H1 & H2 & H3). destruct (end_block s) as [[[s' mi] bu]| |] eqn:E; [|split; [lia|reflexivity]..].
    rewrite (end_block_gap s s' mi bu H1 H2 H3 E d). split; [lia|reflexivity].
  - destruct (after_epoch_end s) as [s'| |] eqn:E; [|split; [lia|reflexivity]..].
    rewrite (after_epoch_end_gap s s' Hr E d). split; [lia|reflexivity].
  - split; [apply Z.le_refl|reflexivity].
Qed.

(* C01 over chains of blocks: the module account covers the recorded amounts after every step, and holds exactly as
   much beyond them as at the start as long as no pool is decommissioned *)
Theorem chain_gap : forall steps s, chain_ready s steps ->
  forall d, gap s d <= gap (fold_left chain_apply steps s) d /\
            (forallb no_decommission steps = true -> gap (fold_left chain_apply steps s) d = gap s d).
Proof.
  induction steps as [|st rest IH]; intros s Hr d; cbn [fold_left forallb]; [split; [lia|reflexivity]|].
  destruct Hr as [Hst Hrest]. destruct (chain_apply_gap s st Hst d) as [A1 A2]. destruct (IH _ Hrest d) as [B1 B2].
  split; [lia|]. intros Hn. apply andb_true_iff in Hn. destruct Hn as [N1 N2]. rewrite (B2 N2). exact (A2 N1).
Qed.
Corollary chain_solvent steps s : chain_ready s steps -> solvent s -> solvent (fold_left chain_apply steps s).
Proof. intros Hr Hs d. destruct (chain_gap steps s Hr d) as [H _]. specialize (Hs d). lia. Qed.
