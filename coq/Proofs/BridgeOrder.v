(* C05 / C09, order independence without the premise on the claims' total power: every stored prophecy lists each
   validator under at most one claim content (kept by every claim transaction), so the powers of its claims add up to
   at most the whitelisted bonded total, whatever the whitelist and the staking set are when the claim is processed.
   Hence the result of a claim transaction, and of a whole history of them, is the same for every iteration order of
   the claim map. *)
From Coq Require Import ZArith Lia Bool List Permutation.
From RecordUpdate Require Import RecordUpdate.
From Sif Require Import Base.Outcome Base.Store Base.Bank Model.Bridge Proofs.BridgeProofs.
Import ListNotations.
Local Open Scope Z_scope.

Lemma wsum_app s a b : wsum s (a ++ b) = wsum s a + wsum s b.
Proof. unfold wsum. induction a as [|x a IH]; cbn [map zsum app]; lia. Qed.

Lemma claims_total_concat s claims : claims_total s claims = wsum s (concat (map snd claims)).
Proof.
  unfold claims_total. induction claims as [|[c vs] r IH]; cbn [fold_right map concat snd]; [reflexivity|].
  rewrite IH, wsum_app, claim_power_wsum. reflexivity.
Qed.

Definition staking_wf (s : bridge_state) : Prop :=
  NoDup (map fst (br_validators s)) /\ Forall (fun e : Z * (Z * bool) => 0 <= fst (snd e)) (br_validators s).

Lemma lookup_in {A} k (l : list (Z * A)) v : lookup k l = Some v -> In (k, v) l.
Proof.
  induction l as [|[a x] r IH]; cbn [lookup]; [discriminate|]. destruct (Z.eqb_spec a k) as [->|]; [intros [= ->]; left; reflexivity|right; auto].
Qed.
Lemma lookup_nodup {A} k (l : list (Z * A)) v : NoDup (map fst l) -> In (k, v) l -> lookup k l = Some v.
Proof.
  induction l as [|[a x] r IH]; intros Hn Hin; [contradiction|]. cbn [map fst] in Hn. apply NoDup_cons_iff in Hn. destruct Hn as [Hna Hn].
  cbn [lookup]. destruct Hin as [[= -> ->]|Hin]; [rewrite Z.eqb_refl; reflexivity|].
  destruct (Z.eqb_spec a k) as [->|]; [|auto]. exfalso. apply Hna. apply (in_map fst) in Hin. exact Hin.
Qed.
Lemma lookup_none_notin {A} k (l : list (Z * A)) : lookup k l = None -> ~ In k (map fst l).
Proof.
  induction l as [|[a x] r IH]; cbn [lookup map fst]; [intros _ []|].
  destruct (Z.eqb_spec a k); [discriminate|]. intros H [E|Hin]; [contradiction | exact (IH H Hin)].
Qed.

Lemma staking_nonneg s : staking_wf s -> powers_nonneg s.
Proof.
  intros [_ Hf] v p H. unfold bonded_power in H. destruct (lookup v (br_validators s)) as [[q b]|] eqn:E; [|discriminate].
  destruct b; [|discriminate]. injection H as <-. apply lookup_in in E. exact (proj1 (Forall_forall _ _) Hf _ E).
Qed.
Lemma weight_outside s v : ~ In v (map fst (br_validators s)) -> weight s v = 0.
Proof.
  intros Hn. unfold weight, bonded_power. destruct (lookup v (br_validators s)) as [[q b]|] eqn:E; [|reflexivity].
  exfalso. apply Hn. apply lookup_in in E. apply (in_map fst) in E. exact E.
Qed.

Lemma total_power_wsum s : staking_wf s -> total_power s = wsum s (map fst (br_validators s)).
Proof.
  intros [Hn _]. unfold total_power, wsum.
  assert (G : forall l acc, (forall e, In e l -> lookup (fst e) (br_validators s) = Some (snd e)) ->
     fold_left (fun acc e => let '(v, (p, b)) := e in if b && mem v (br_whitelist s) then acc + p else acc) l acc
     = acc + zsum (map (weight s) (map fst l))).
  { induction l as [|[v [p b]] r IH]; intros acc Hl; cbn [fold_left map zsum fst]; [lia|].
    rewrite IH by (intros e He; apply Hl; right; exact He).
    assert (E : lookup v (br_validators s) = Some (p, b)) by (apply (Hl (v, (p, b))); left; reflexivity).
    unfold weight, bonded_power. rewrite E. destruct b; cbn [andb]; [destruct (mem v _)|]; lia. }
  rewrite G; [lia|]. intros [v x] He. cbn [fst snd]. apply lookup_nodup; assumption.
Qed.

Lemma wsum_sub s : staking_wf s -> forall k l, NoDup l -> (forall v, In v l -> ~ In v k -> weight s v = 0) -> wsum s l <= wsum s k.
Proof.
  intros Hw. induction k as [|a k IH]; intros l Hn Hout.
  - assert (E : wsum s l = 0).
    { clear Hn. unfold wsum. induction l as [|x l IHl]; cbn [map zsum]; [reflexivity|].
      rewrite (Hout x) by (try (left; reflexivity); intros []). rewrite IHl; [reflexivity|]. intros v Hv. apply Hout. right. exact Hv. }
    rewrite E. reflexivity.
  - unfold wsum at 2. cbn [map zsum]. fold (wsum s k). pose proof (weight_nonneg s a (staking_nonneg s Hw)) as Ha.
    destruct (in_dec Z.eq_dec a l) as [Hin|Hnin].
    + destruct (in_split _ _ Hin) as (l1 & l2 & ->). apply NoDup_remove in Hn. destruct Hn as [Hn Hna].
      rewrite wsum_app. unfold wsum at 2. cbn [map zsum]. fold (wsum s l2).
      assert (H := IH (l1 ++ l2) Hn). rewrite wsum_app in H.
      assert (wsum s l1 + wsum s l2 <= wsum s k); [|lia]. apply H. intros v Hv Hk. apply Hout.
      * apply in_app_or in Hv. apply in_or_app. destruct Hv; [left|right; right]; assumption.
      * intros [<-|Hk']; [exact (Hna Hv)|exact (Hk Hk')].
    + assert (wsum s l <= wsum s k); [|lia]. apply IH; [exact Hn|]. intros v Hv Hk. apply Hout; [exact Hv|].
      intros [<-|Hk']; [exact (Hnin Hv)|exact (Hk Hk')].
Qed.

Definition claims_inv (pr : prophecy) : Prop :=
  NoDup (claimers pr) /\ forall v, In v (claimers pr) -> lookup v (pr_vclaims pr) <> None.

Lemma claims_inv_bound s pr : staking_wf s -> NoDup (claimers pr) -> claims_total s (pr_claims pr) <= total_power s.
Proof.
  intros Hw Hn. rewrite claims_total_concat, (total_power_wsum s Hw). apply wsum_sub; [exact Hw|exact Hn|].
  intros v _ Hk. apply weight_outside. exact Hk.
Qed.

Lemma add_claim_perm c v claims : Permutation (concat (map snd (add_claim c v claims))) (v :: concat (map snd claims)).
Proof.
  induction claims as [|[c' vs] r IH]; cbn [add_claim map concat snd app]; [reflexivity|].
  destruct (c' =? c); cbn [map concat snd].
  - rewrite <- app_assoc. cbn [app]. symmetry. apply Permutation_middle.
  - rewrite IH. symmetry. apply Permutation_middle.
Qed.

Lemma lookup_snoc {A} k (l : list (Z * A)) k2 x :
  lookup k (l ++ [(k2, x)]) = match lookup k l with Some v => Some v | None => if k2 =? k then Some x else None end.
Proof. induction l as [|[a y] r IH]; cbn [lookup app]; [reflexivity|]. destruct (a =? k); [reflexivity | exact IH]. Qed.

Lemma claims_inv_add pr c v :
  claims_inv pr -> lookup v (pr_vclaims pr) = None -> claims_inv (with_claim pr c v).
Proof.
  intros [Hn Hk] Hnone. unfold claims_inv, claimers, with_claim. cbn.
  pose proof (add_claim_perm c v (pr_claims pr)) as Hp. split.
  - apply (Permutation_NoDup (Permutation_sym Hp)). constructor; [|exact Hn]. intros Hin. exact (Hk v Hin Hnone).
  - intros v' Hin. rewrite lookup_snoc. apply (Permutation_in _ Hp) in Hin as [<-|Hin].
    + rewrite Hnone, Z.eqb_refl. discriminate.
    + specialize (Hk v' Hin). destruct (lookup v' (pr_vclaims pr)); [discriminate | contradiction].
Qed.

(* the completion writes status and final claim only *)
Lemma claims_inv_completion s l pr : claims_inv pr -> claims_inv (process_completion s l pr).
Proof.
  intros H. unfold process_completion. destruct (highest_loop s l (-1) (-1) 0) as [[b p] t].
  destruct (ratio_ge _ _); [exact H|]. destruct (ratio_lt _ _); exact H.
Qed.

Definition prophecies_inv (s : bridge_state) : Prop := forall pid pr, get pid (br_prophecies s) = Some pr -> claims_inv pr.
Definition bridge_inv (s : bridge_state) : Prop := staking_wf s /\ prophecies_inv s.

Lemma old_prophecy_inv s pid : prophecies_inv s -> claims_inv (old_prophecy s pid).
Proof. intros H. unfold old_prophecy. destruct (get pid (br_prophecies s)) eqn:E; [exact (H _ _ E) | split; [constructor | intros v []]]. Qed.

Lemma process_claim_keeps s perm pid val cid s' pr :
  prophecies_inv s -> process_claim s perm pid val cid = Ok (s', pr) -> claims_inv pr.
Proof.
  intros Hi H. apply process_claim_inv in H as (_ & _ & _ & Hnone & _ & ->).
  apply claims_inv_completion, claims_inv_add; [apply old_prophecy_inv; exact Hi | exact Hnone].
Qed.
Lemma prophecies_inv_set s s' pid pr :
  prophecies_inv s -> claims_inv pr -> br_prophecies s' = set pid pr (br_prophecies s) -> prophecies_inv s'.
Proof.
  intros Hi Hc E pid' pr' Hg. rewrite E in Hg.
  destruct (Z.eq_dec pid' pid) as [->|Hne]; [rewrite get_set_same in Hg; injection Hg as <-; exact Hc|].
  rewrite get_set_other in Hg by exact Hne. exact (Hi _ _ Hg).
Qed.

(* a claim transaction writes one prophecy and leaves the staking view alone *)
Lemma create_claim_keeps s perm pid val cid ct s' :
  bridge_inv s -> create_claim s perm pid val cid ct = Ok s' -> bridge_inv s'.
Proof.
  intros [Hw Hi] H. apply create_claim_inv in H as (pr & Hp & H). cbv zeta in *.
  assert (Hc : claims_inv pr) by (eapply process_claim_keeps; [|exact Hp]; exact Hi).
  assert (G : forall s2, br_validators s2 = br_validators s -> br_prophecies s2 = set pid pr (br_prophecies s) -> bridge_inv s2).
  { intros s2 Ev Epr. split; [unfold staking_wf; rewrite Ev; exact Hw | exact (prophecies_inv_set _ _ _ _ Hi Hc Epr)]. }
  destruct (pr_status pr =? 1); [|subst s'; apply G; reflexivity].
  apply claim_credit in H as (ctf & b & pg & _ & _ & _ & _ & -> & _). apply G; reflexivity.
Qed.

Definition is_order (perm : list (Z * list Z) -> list (Z * list Z)) : Prop := forall l, Permutation (perm l) l.

Theorem process_claim_order_free s perm1 perm2 pid val cid :
  is_order perm1 -> is_order perm2 -> staking_wf s -> prophecies_inv s ->
  process_claim s perm1 pid val cid = process_claim s perm2 pid val cid.
Proof.
  intros H1 H2 Hw Hi. rewrite !process_claim_eq. unfold accepts.
  destruct (lookup val (pr_vclaims (old_prophecy s pid))) eqn:Hnone; [rewrite andb_false_r; reflexivity|].
  set (pr1 := with_claim (old_prophecy s pid) cid val).
  assert (Hc : claims_inv pr1) by (apply claims_inv_add; [apply old_prophecy_inv; exact Hi | exact Hnone]).
  cbv zeta. rewrite (completion_perm s (perm1 (pr_claims pr1)) (perm2 (pr_claims pr1)) pr1); [reflexivity | | |].
  - rewrite (H1 _), (H2 _). reflexivity.
  - apply staking_nonneg, Hw.
  - rewrite (claims_total_perm s _ _ (H1 _)). apply claims_inv_bound; [exact Hw | exact (proj1 Hc)].
Qed.

Theorem create_claim_order_free s perm1 perm2 pid val cid ct :
  is_order perm1 -> is_order perm2 -> staking_wf s -> prophecies_inv s ->
  create_claim s perm1 pid val cid ct = create_claim s perm2 pid val cid ct.
Proof.
  intros H1 H2 Hw Hi. unfold create_claim.
  cbv zeta.
  match goal with |- context [process_claim ?s0 perm1 pid val cid] =>
    rewrite (process_claim_order_free s0 perm1 perm2 pid val cid H1 H2 Hw Hi) end.
  reflexivity.
Qed.

Inductive bridge_ev :=
| EvClaim (m : claim_msg)
| EvWhitelist (sender val : Z) (add : bool)
| EvStaking (vals : list (Z * (Z * bool))).     (* the staking module's view after any block *)

Definition staking_list_wf (vals : list (Z * (Z * bool))) : Prop :=
  NoDup (map fst vals) /\ Forall (fun e : Z * (Z * bool) => 0 <= fst (snd e)) vals.

Definition bridge_step (perm : list (Z * list Z) -> list (Z * list Z)) (s : bridge_state) (e : bridge_ev) : bridge_state * option Z :=
  match e with
  | EvClaim m => deliver_claim perm s m
  | EvWhitelist sender val add => (match update_whitelist s sender val add with Ok s' => s' | _ => s end, None)
  | EvStaking vals => (s <| br_validators := vals |>, None)
  end.

Fixpoint bridge_run (perm : list (Z * list Z) -> list (Z * list Z)) (s : bridge_state) (es : list bridge_ev) : bridge_state * list (option Z) :=
  match es with
  | [] => (s, [])
  | e :: rest => let '(s1, c) := bridge_step perm s e in let '(s2, cs) := bridge_run perm s1 rest in (s2, c :: cs)
  end.

Definition evs_wf (es : list bridge_ev) : Prop :=
  Forall (fun e => match e with EvStaking vals => staking_list_wf vals | _ => True end) es.

Lemma bridge_step_inv perm s e : bridge_inv s -> (match e with EvStaking vals => staking_list_wf vals | _ => True end) ->
  bridge_inv (fst (bridge_step perm s e)).
Proof.
  intros [Hw Hi] He. destruct e as [m|sender val add|vals]; cbn [bridge_step fst].
  - unfold deliver_claim. destruct (create_claim s perm _ _ _ _) as [s'| |] eqn:E; cbn [fst]; try (split; assumption).
    exact (create_claim_keeps _ _ _ _ _ _ _ (conj Hw Hi) E).
  - unfold update_whitelist. destruct (negb (mem sender (br_accounts s))); [split; assumption|].
    destruct (negb (sender =? br_oracle_admin s)); [split; assumption|]. destruct add; split; assumption.
  - split; [exact He|exact Hi].
Qed.

Theorem bridge_run_order_free perm1 perm2 es : is_order perm1 -> is_order perm2 -> forall s,
  bridge_inv s -> evs_wf es ->
  bridge_run perm1 s es = bridge_run perm2 s es /\ bridge_inv (fst (bridge_run perm1 s es)).
Proof.
  intros H1 H2. induction es as [|e rest IH]; intros s Hinv Hes; cbn [bridge_run]; [split; [reflexivity | exact Hinv]|].
  inversion Hes as [|? ? He Hrest]; subst.
  assert (E : bridge_step perm1 s e = bridge_step perm2 s e).
  { destruct e as [m| |]; cbn [bridge_step]; try reflexivity. unfold deliver_claim.
    rewrite (create_claim_order_free s perm1 perm2 _ _ _ _ H1 H2 (proj1 Hinv) (proj2 Hinv)). reflexivity. }
  pose proof (bridge_step_inv perm1 s e Hinv He) as Hn. rewrite E in *.
  destruct (bridge_step perm2 s e) as [s1 c]. destruct (IH s1 Hn Hrest) as [E2 Hi]. rewrite E2 in *.
  destruct (bridge_run perm2 s1 rest) as [s2 cs]. split; [reflexivity | exact Hi].
Qed.

Lemma bridge_inv_initial s : staking_wf s -> br_prophecies s = [] -> bridge_inv s.
Proof. intros Hw E. split; [exact Hw|]. intros pid pr Hg. rewrite E in Hg. discriminate. Qed.

(* the premise as the boolean that Check/Bridge.v evaluates on every observed state *)
Lemma nodupb_sound l : nodupb l = true -> NoDup l.
Proof.
  induction l as [|x r IH]; cbn [nodupb]; [constructor|]. intros H. apply andb_prop in H. destruct H as [H1 H2].
  constructor; [|exact (IH H2)]. intros Hin. apply mem_true_iff in Hin. rewrite Hin in H1. discriminate.
Qed.

Lemma bridge_inv_b_sound s : bridge_inv_b s = true -> bridge_inv s.
Proof.
  unfold bridge_inv_b, staking_wf_b. intros H. apply andb_prop in H. destruct H as [H1 H2]. apply andb_prop in H1. destruct H1 as [Ha Hb].
  split; [split; [exact (nodupb_sound _ Ha)|]|].
  - apply Forall_forall. intros e He. rewrite forallb_forall in Hb. specialize (Hb e He). apply Z.leb_le in Hb. exact Hb.
  - intros pid pr Hg. apply get_in in Hg. rewrite forallb_forall in H2. specialize (H2 _ Hg). cbn [snd] in H2.
    unfold claims_inv_b in H2. apply andb_prop in H2. destruct H2 as [Hn Hf]. split; [exact (nodupb_sound _ Hn)|].
    intros v Hv. rewrite forallb_forall in Hf. specialize (Hf v Hv). destruct (lookup v (pr_vclaims pr)); [discriminate|discriminate].
Qed.
