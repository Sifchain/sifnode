(* C04 / C13: a removal from a pool that is enabled for margin trading is executed only if the pool it leaves behind has a
   health of at least the removal-queue threshold (the providers cannot pull the depth away from under the open positions). *)
From Coq Require Import ZArith Lia Bool List.
From RecordUpdate Require Import RecordUpdate.
From Sif Require Import Base.Outcome Base.SdkMath Base.Store Base.Bank Model.ClpCalc Model.ClpTypes Model.ClpState Model.ClpMsgs Proofs.BankProofs Proofs.ClpInv.
Import ListNotations.
Local Open Scope Z_scope.

Lemma health_gate_ok ps a pl : health_gate ps a pl = Ok tt ->
  existsb (Z.eqb a) (cp_margin ps) = true -> cp_rq_threshold ps <= pool_health (p_nb pl) (p_nl pl) (p_eb pl) (p_el pl).
Proof.
  unfold health_gate. intros H Hm. rewrite Hm in H. apply require_ok in H. apply negb_true_iff in H. apply Z.ltb_ge in H. exact H.
Qed.

Lemma removed_health s sg a s' :
  removed s sg a s' -> existsb (Z.eqb a) (cp_margin (cs_params s)) = true ->
  exists pl', get a (cs_pools s') = Some pl' /\ cp_rq_threshold (cs_params s) <= pool_health (p_nb pl') (p_nl pl') (p_eb pl') (p_el pl').
Proof.
  intros (pl & l0 & wn & we & lft & caller & b2 & -> & _ & _ & (_ & _ & _ & Hgate) & _) Hm.
  eexists. split; [|exact (health_gate_ok _ _ _ Hgate Hm)]. rewrite pools_with_bank, pools_set_pool. apply get_set_same.
Qed.

Theorem remove_liquidity_health s sg a w asym s' :
  remove_liquidity s sg a w asym = Ok s' -> existsb (Z.eqb a) (cp_margin (cs_params s)) = true ->
  exists pl', get a (cs_pools s') = Some pl' /\ cp_rq_threshold (cs_params s) <= pool_health (p_nb pl') (p_nl pl') (p_eb pl') (p_el pl').
Proof. intros H. exact (removed_health _ _ _ _ (remove_liquidity_spec _ _ _ _ _ _ H)). Qed.

Theorem remove_liquidity_units_health s sg a u s' :
  remove_liquidity_units s sg a u = Ok s' -> existsb (Z.eqb a) (cp_margin (cs_params s)) = true ->
  exists pl', get a (cs_pools s') = Some pl' /\ cp_rq_threshold (cs_params s) <= pool_health (p_nb pl') (p_nl pl') (p_eb pl') (p_el pl').
Proof. intros H. exact (removed_health _ _ _ _ (remove_liquidity_units_spec _ _ _ _ _ H)). Qed.
