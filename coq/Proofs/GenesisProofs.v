(* C14: import (export x) = x for the clp and dispensation stores (and hence export (import (export x)) = export x); for
   x/margin everything but the id counter comes back, and the re-export is the same document. *)
From Coq Require Import ZArith Lia Bool List.
From RecordUpdate Require Import RecordUpdate.
From Sif Require Import Base.Outcome Base.Store Base.Bank Model.ClpTypes Model.ClpPolicy Model.Dispensation Model.Margin Model.Genesis
  Proofs.DispProofs.
Import ListNotations.
Local Open Scope Z_scope.

Section Stores.
Context {V : Type}.
Implicit Types m acc : store V.

Definition keys_lt m (k : Z) : Prop := Forall (fun kv => fst kv < k) m.

Lemma set_snoc m k v : keys_lt m k -> set k v m = m ++ [(k, v)].
Proof.
  induction m as [|[k' v'] m IH]; intros H; [reflexivity|].
  inversion H as [|? ? H1 H2]; subst. cbn [fst] in H1. cbn [set app].
  destruct (Z.ltb_spec k' k); [|lia]. rewrite IH; auto.
Qed.
Lemma get_snoc_same m k v : keys_lt m k -> get k (m ++ [(k, v)]) = Some v.
Proof. intros H. rewrite <- set_snoc by exact H. apply get_set_same. Qed.
Lemma set_snoc_replace m k v v' : keys_lt m k -> set k v' (m ++ [(k, v)]) = m ++ [(k, v')].
Proof. intros H. rewrite <- (set_snoc m k v H), set_set_same. apply set_snoc, H. Qed.

Lemma sorted_from_app lo a k v l : sorted_from lo (a ++ (k, v) :: l) -> keys_lt a k.
Proof.
  revert lo. induction a as [|[k' v'] a IH]; intros lo H; [constructor|]. destruct H as [_ H].
  constructor; [|exact (IH _ H)]. apply (sorted_from_lb _ _ _ v H), in_or_app. right; left; reflexivity.
Qed.

Lemma of_list_acc l : forall acc lo, sorted_from lo (acc ++ l) ->
  fold_left (fun m kv => set (fst kv) (snd kv) m) l acc = acc ++ l.
Proof.
  induction l as [|[k v] l IH]; intros acc lo H; cbn [fold_left]; [rewrite app_nil_r; reflexivity|].
  cbn [fst snd]. rewrite set_snoc by exact (sorted_from_app _ _ _ _ _ H).
  rewrite (IH (acc ++ [(k, v)]) lo); rewrite <- app_assoc; [reflexivity | exact H].
Qed.
Lemma of_list_id m : wf m -> of_list m = m.
Proof. intros [lo H]. unfold of_list. apply (of_list_acc m [] lo). exact H. Qed.
End Stores.

Section Nested.
Context {V : Type}.
Variable f : V -> V.
Implicit Types m acc : store (store V).

Lemma nset_last acc a (done : store V) k v : keys_lt acc a -> keys_lt done k ->
  nset a k v (acc ++ [(a, done)]) = acc ++ [(a, done ++ [(k, v)])].
Proof.
  intros Ha Hk. unfold nset, inner. rewrite (get_snoc_same acc a done Ha), (set_snoc done k v Hk).
  apply set_snoc_replace; exact Ha.
Qed.
Lemma nset_new acc a k v : keys_lt acc a -> nset a k v acc = acc ++ [(a, [(k, v)])].
Proof.
  intros Ha. unfold nset, inner.
  assert (Hg : get a acc = None).
  { clear - Ha. induction acc as [|[k' w] acc IHa]; [reflexivity|]. inversion Ha as [|? ? H1 H2]; subst. cbn [fst] in H1.
    cbn [get]. destruct (Z.ltb_spec k' a); [auto | lia]. }
  rewrite Hg. cbn [set]. apply set_snoc; exact Ha.
Qed.

(* entries of one asset, appended to an accumulator whose last entry is that asset *)
Lemma of_flat_inner a (i : store V) : forall acc (done : store V) lo,
  keys_lt acc a -> sorted_from lo (done ++ i) -> (forall kv, In kv i -> f (snd kv) = snd kv) ->
  fold_left (fun m e => nset (fst e) (fst (snd e)) (f (snd (snd e))) m) (map (fun e => (a, e)) i) (acc ++ [(a, done)])
  = acc ++ [(a, done ++ i)].
Proof.
  induction i as [|[k v] i IH]; intros acc done lo Ha Hs Hf; cbn [map fold_left]; [rewrite app_nil_r; reflexivity|].
  cbn [fst snd].
  pose proof (sorted_from_app _ _ _ _ _ Hs) as Hk.
  pose proof (Hf (k, v) (or_introl eq_refl)) as Hfv. cbn [snd] in Hfv. rewrite Hfv. rewrite (nset_last acc a done k v Ha Hk).
  etransitivity; [apply (IH acc (done ++ [(k, v)]) lo Ha)|].
  - rewrite <- app_assoc. exact Hs.
  - intros kv Hin. apply Hf. right; exact Hin.
  - rewrite <- app_assoc. reflexivity.
Qed.

Definition inner_ok (kv : Z * store V) : Prop :=
  snd kv <> [] /\ wf (snd kv) /\ forall e, In e (snd kv) -> f (snd e) = snd e.

Lemma of_flat_acc m : forall acc lo, sorted_from lo (acc ++ m) -> Forall inner_ok m ->
  fold_left (fun m e => nset (fst e) (fst (snd e)) (f (snd (snd e))) m) (flatten m) acc = acc ++ m.
Proof.
  induction m as [|[a i] m IH]; intros acc lo Hs Hok; [cbn; rewrite app_nil_r; reflexivity|].
  inversion Hok as [|? ? (Hne & (lo' & Hwf) & Hf) Hok']; subst. cbn [snd] in *.
  pose proof (sorted_from_app _ _ _ _ _ Hs) as Ha.
  unfold flatten. cbn [flat_map fst snd]. rewrite fold_left_app.
  destruct i as [|[k v] i]; [contradiction|]. cbn [map fold_left fst snd].
  pose proof (Hf (k, v) (or_introl eq_refl)) as Hfv. cbn [snd] in Hfv. rewrite Hfv. rewrite (nset_new acc a k v Ha).
  assert (E1 : fold_left (fun m e => nset (fst e) (fst (snd e)) (f (snd (snd e))) m) (map (fun e => (a, e)) i) (acc ++ [(a, [(k, v)])])
               = acc ++ [(a, (k, v) :: i)]).
  { apply (of_flat_inner a i acc [(k, v)] lo' Ha Hwf). intros kv Hin; apply Hf; right; exact Hin. }
  etransitivity; [apply f_equal; exact E1|].
  fold (flatten m).
  etransitivity; [apply (IH (acc ++ [(a, (k, v) :: i)]) lo); [rewrite <- app_assoc; exact Hs | exact Hok']|].
  rewrite <- app_assoc. reflexivity.
Qed.
Lemma of_flat_id m : wf m -> Forall inner_ok m -> of_flat f (flatten m) = m.
Proof. intros [lo H] Hok. unfold of_flat. apply (of_flat_acc m [] lo); assumption. Qed.
End Nested.

Definition lp_stamped (l : lprov) : Prop := lp_last l <> 0.
Record CarriedWF (c : clp_carried) : Prop := mkCWF {
  cw_pools : wf (cc_pools c);
  cw_buckets : wf (cc_buckets c);
  cw_lps : wf (cc_lps c);
  cw_inner : Forall (fun kv => snd kv <> [] /\ wf (snd kv) /\ forall e, In e (snd kv) -> lp_stamped (snd e)) (cc_lps c)
}.

Theorem import_export_clp h c : CarriedWF c -> import_clp h (export_clp c) = c.
Proof.
  intros [Hp Hb Hl Hi]. destruct c as [pools lps buckets rw pd lp pm]. unfold import_clp, export_clp.
  cbn [cg_pools cg_lps cg_buckets cg_rewards cg_lppd cg_lp cg_pmtp
       cc_pools cc_lps cc_buckets cc_rewards cc_lppd cc_lp cc_pmtp] in *.
  rewrite (of_list_id pools Hp), (of_list_id buckets Hb).
  rewrite (of_flat_id (import_lp h) lps Hl); [reflexivity|].
  eapply Forall_impl; [|exact Hi]. intros kv (H1 & H2 & H3). split; [exact H1|]. split; [exact H2|].
  intros e He. specialize (H3 e He). unfold import_lp, lp_stamped in *. destruct (Z.eqb_spec (lp_last (snd e)) 0); [contradiction | reflexivity].
Qed.
Corollary reexport_clp h c : CarriedWF c -> export_clp (import_clp h (export_clp c)) = export_clp c.
Proof. intros H. rewrite import_export_clp by exact H. reflexivity. Qed.

Lemma key_ltb_iff a b : key_ltb a b = true <->
  (k_name a < k_name b \/ (k_name a = k_name b /\ (k_type a < k_type b \/ (k_type a = k_type b /\ k_raw a < k_raw b)))).
Proof. unfold key_ltb. rewrite orb_true_iff, andb_true_iff, orb_true_iff, andb_true_iff, !Z.ltb_lt, !Z.eqb_eq. reflexivity. Qed.
Lemma key_ltb_irrefl k : key_ltb k k = false.
Proof. apply not_true_iff_false. rewrite key_ltb_iff. lia. Qed.
Lemma key_ltb_asym a b : key_ltb a b = true -> key_ltb b a = false.
Proof. rewrite <- not_true_iff_false, !key_ltb_iff. lia. Qed.
Lemma key_ltb_trans a b c : key_ltb a b = true -> key_ltb b c = true -> key_ltb a c = true.
Proof. rewrite !key_ltb_iff. lia. Qed.
Lemma key_ltb_total a b : a <> b -> key_ltb a b = false -> key_ltb b a = true.
Proof.
  rewrite <- key_eqb_eq, <- not_true_iff_false, !key_ltb_iff. unfold key_eqb.
  rewrite !andb_true_iff, !Z.eqb_eq. lia.
Qed.

Fixpoint tasc {V} (t : table V) : Prop :=
  match t with [] => True | (k, _) :: r => Forall (fun e => key_ltb k (fst e) = true) r /\ tasc r end.
Definition tkeys_lt {V} (t : table V) (k : rkey) : Prop := Forall (fun e => key_ltb (fst e) k = true) t.

Lemma rset_snoc {V} (t : table V) k v : tkeys_lt t k -> rset k v t = t ++ [(k, v)].
Proof.
  intros H. unfold rset.
  assert (Hn : rget k t = None).
  { induction t as [|[k' v'] t IH]; [reflexivity|]. inversion H as [|? ? H1 H2]; subst. cbn [fst] in H1. cbn [rget].
    destruct (key_eqb_spec k k') as [<-|]; [rewrite key_ltb_irrefl in H1; discriminate | auto]. }
  rewrite Hn. clear Hn. induction t as [|[k' v'] t IH]; [reflexivity|].
  inversion H as [|? ? H1 H2]; subst. cbn [fst] in H1. cbn [rinsert app]. rewrite (key_ltb_asym _ _ H1). rewrite IH; auto.
Qed.
Lemma tasc_app {V} (a : table V) k v l : tasc (a ++ (k, v) :: l) -> tkeys_lt a k.
Proof.
  induction a as [|[k' v'] a IH]; intros H; [constructor|]. cbn [app tasc] in H. destruct H as [H1 H2].
  constructor; [|apply IH; exact H2]. cbn [fst]. rewrite Forall_forall in H1. apply (H1 (k, v)). apply in_or_app. right; left; reflexivity.
Qed.

Lemma of_records_other st st' (l : table drec) : st <> st' -> forall acc,
  fold_left (fun t e => if fst e =? st then rset (fst (snd e)) (snd (snd e)) t else t) (map (fun e => (st', e)) l) acc = acc.
Proof.
  intros Hne. induction l as [|e l IH]; intros acc; [reflexivity|]. cbn [map fold_left fst].
  destruct (Z.eqb_spec st' st); [congruence | apply IH].
Qed.
Lemma of_records_same st (l : table drec) : forall acc, tasc (acc ++ l) ->
  fold_left (fun t e => if fst e =? st then rset (fst (snd e)) (snd (snd e)) t else t) (map (fun e => (st, e)) l) acc = acc ++ l.
Proof.
  induction l as [|[k v] l IH]; intros acc H; [cbn; rewrite app_nil_r; reflexivity|].
  cbn [map fold_left fst snd]. rewrite Z.eqb_refl. rewrite (rset_snoc acc k v (tasc_app _ _ _ _ H)).
  rewrite (IH (acc ++ [(k, v)])); rewrite <- app_assoc; [reflexivity | exact H].
Qed.

Definition DispWF (d : disp_carried) : Prop := tasc (dc_pending d) /\ tasc (dc_completed d) /\ tasc (dc_failed d).

Theorem import_export_disp d : DispWF d -> import_disp (export_disp d) = d.
Proof.
  intros (Hp & Hc & Hf). destruct d as [p c f ds cl]. unfold import_disp, export_disp, of_records, DispWF in *.
  cbn [dg_records dg_dists dg_claims dc_pending dc_completed dc_failed dc_dists dc_claims] in *.
  rewrite !fold_left_app.
  rewrite (of_records_same 1 p [] Hp), (of_records_other 1 2 c ltac:(lia)), (of_records_other 1 3 f ltac:(lia)).
  rewrite (of_records_other 2 1 p ltac:(lia)), (of_records_same 2 c [] Hc), (of_records_other 2 3 f ltac:(lia)).
  rewrite (of_records_other 3 1 p ltac:(lia)), (of_records_other 3 2 c ltac:(lia)), (of_records_same 3 f [] Hf).
  reflexivity.
Qed.
Corollary reexport_disp d : DispWF d -> export_disp (import_disp (export_disp d)) = export_disp d.
Proof. intros H. rewrite import_export_disp by exact H. reflexivity. Qed.

(* the table order is what the model's own updates maintain *)
Lemma tasc_rinsert {V} (t : table V) k v : tasc t -> rget k t = None -> tasc (rinsert k v t).
Proof.
  induction t as [|[k' v'] t IH]; intros H Hn; [cbn; split; [constructor | exact I]|].
  cbn [tasc] in H. destruct H as [H1 H2]. cbn [rget] in Hn. destruct (key_eqb_spec k k') as [|Hne]; [discriminate|].
  cbn [rinsert]. destruct (key_ltb k k') eqn:El.
  - cbn [tasc]. split; [|split; assumption]. constructor; [exact El|].
    rewrite Forall_forall in *. intros e He. eapply key_ltb_trans; [exact El | apply H1; exact He].
  - cbn [tasc]. split; [|apply IH; assumption].
    rewrite Forall_forall in *. intros e He. apply (Permutation.Permutation_in _ (rinsert_perm k v t)) in He as [<-|He]; [|auto].
    cbn [fst]. apply key_ltb_total; [congruence | exact El].
Qed.
Lemma tasc_keys {V} (t t' : table V) : tkeys t = tkeys t' -> tasc t -> tasc t'.
Proof.
  revert t'. induction t as [|[k v] t IH]; intros [|[k' v'] t'] E H; try discriminate; [exact I|].
  injection E as <- E. cbn [tasc] in *. destruct H as [H1 H2]. split; [|apply IH; assumption].
  rewrite Forall_forall in *. intros e He. apply (in_map fst) in He. fold (tkeys t') in He. rewrite <- E in He.
  apply in_map_iff in He as (e0 & E0 & He0). rewrite <- E0. apply H1; exact He0.
Qed.
Lemma tasc_rset {V} (t : table V) k v : tasc t -> tasc (rset k v t).
Proof.
  intros H. unfold rset. destruct (rget k t) eqn:E; [|apply tasc_rinsert; assumption].
  eapply tasc_keys; [|exact H]. symmetry. apply tkeys_rreplace.
Qed.
Lemma tasc_rdel {V} (t : table V) k : tasc t -> tasc (rdel k t).
Proof.
  induction t as [|[k' v'] t IH]; intros H; [exact I|]. cbn [tasc] in H. destruct H as [H1 H2]. cbn [rdel].
  destruct (key_eqb k k'); [exact H2|]. cbn [tasc]. split; [|apply IH; exact H2].
  rewrite Forall_forall in *. intros e He. apply H1. eapply in_rdel; exact He.
Qed.

Definition ids_pos (m : store (store mtp)) : Prop := forall e, In e (flatten m) -> 1 <= fst (snd e).
Record MarginWF (c : margin_carried) : Prop := mkMWF {
  mw_outer : wf (mc_mtps c);
  mw_inner : Forall (fun kv : Z * store mtp => snd kv <> [] /\ wf (snd kv)) (mc_mtps c);
  mw_ids : ids_pos (mc_mtps c);                                   (* ids are handed out from 1 *)
  mw_open : mc_open c = Z.of_nat (length (flatten (mc_mtps c)));  (* C13: the open counter counts the stored positions *)
  mw_count : forall e, In e (flatten (mc_mtps c)) -> fst (snd e) <= mc_count c
}.

Lemma import_mtp_nonzero l : (forall e, In e l -> fst (snd e) <> 0) -> forall m cnt op,
  fold_left import_mtp l (m, cnt, op) =
  (fold_left (fun m e => nset (fst e) (fst (snd e)) (snd (snd e)) m) l m, cnt, op).
Proof.
  induction l as [|e l IH]; intros H m cnt op; [reflexivity|]. cbn [fold_left]. unfold import_mtp at 2.
  destruct (Z.eqb_spec (fst (snd e)) 0) as [E|_]; [exfalso; exact (H e (or_introl eq_refl) E)|].
  apply IH. intros e' He'. apply H. right; exact He'.
Qed.

Lemma fold_max_ge l : forall a, a <= fold_left Z.max l a.
Proof. induction l as [|x l IH]; intros a; cbn [fold_left]; [lia|]. specialize (IH (Z.max a x)). lia. Qed.
Lemma fold_max_in l : forall a x, In x l -> x <= fold_left Z.max l a.
Proof.
  induction l as [|y l IH]; intros a x H; [destruct H|]. destruct H as [<-|H]; cbn [fold_left].
  - pose proof (fold_max_ge l (Z.max a y)). lia.
  - apply IH; exact H.
Qed.
Lemma fold_max_le l b : forall a, a <= b -> (forall x, In x l -> x <= b) -> fold_left Z.max l a <= b.
Proof.
  induction l as [|y l IH]; intros a Ha H; cbn [fold_left]; [exact Ha|].
  apply IH; [pose proof (H y (or_introl eq_refl)); lia | intros x Hx; apply H; right; exact Hx].
Qed.

Theorem import_export_margin c : MarginWF c ->
  let c' := import_margin (export_margin c) in
  mc_params c' = mc_params c /\ mc_mtps c' = mc_mtps c /\ mc_open c' = mc_open c /\
  (forall e, In e (flatten (mc_mtps c')) -> fst (snd e) <= mc_count c') /\ 0 <= mc_count c' /\ (0 <= mc_count c -> mc_count c' <= mc_count c).
Proof.
  intros [Ho Hi Hids Hop Hcnt]. destruct c as [ps mtps cnt op wl]. cbn [mc_params mc_mtps mc_count mc_open] in *.
  cbv zeta. unfold import_margin, export_margin. cbn [mg_params mg_mtps mc_params mc_mtps mc_count mc_open].
  rewrite import_mtp_nonzero by (intros e He; specialize (Hids e He); lia).
  assert (E : of_flat (fun x : mtp => x) (flatten mtps) = mtps).
  { apply (of_flat_id (fun x : mtp => x) mtps Ho). eapply Forall_impl; [|exact Hi]. intros kv (H1 & H2). split; [exact H1|]. split; [exact H2|]. reflexivity. }
  unfold of_flat in E. cbn beta in E. rewrite E.
  destruct (flatten mtps) as [|e0 l0] eqn:EF.
  - cbn [mc_params mc_mtps mc_open mc_count]. rewrite Hop. cbn. repeat split; try reflexivity; try lia. intros e He. rewrite EF in He. destruct He.
  - cbn [mc_params mc_mtps mc_open mc_count]. rewrite Hop. repeat split; try reflexivity.
    + intros e He. rewrite EF in He. unfold max_id.
      pose proof (fold_max_in (map (fun e => fst (snd e)) (e0 :: l0)) 0 (fst (snd e)) (in_map _ _ _ He)). lia.
    + unfold max_id. pose proof (fold_max_ge (map (fun e => fst (snd e)) (e0 :: l0)) 0). lia.
    + intros Hc. apply Z.max_lub; [exact Hc|]. unfold max_id. apply fold_max_le; [exact Hc|].
      intros x Hx. apply in_map_iff in Hx. destruct Hx as (e & <- & He). apply Hcnt. exact He.
Qed.

Corollary reexport_margin c : MarginWF c -> export_margin (import_margin (export_margin c)) = export_margin c.
Proof.
  intros H. destruct (import_export_margin c H) as (E1 & E2 & _). unfold export_margin at 1. rewrite E1, E2. reflexivity.
Qed.

(* what the format does not carry: the lifetime counter when the positions opened last were closed (F-19), and the whitelist (F-20) *)
Definition mc_example : margin_carried :=
  mkMC (mkMParams 0 0 1 false 0 0 0 0 [] [] false 0 false 0 0 1) [(10, [(1, mkMtp 0 5 5 0 0 0 2 7 2 0)])] 2 1 [14].
Lemma mc_example_wf : MarginWF mc_example.
Proof.
  constructor; cbn.
  - exists 0. cbn. auto with zarith.
  - constructor; [|constructor]. cbn. split; [discriminate|]. exists 0. cbn. auto with zarith.
  - intros e [<-|[]]. cbn. lia.
  - reflexivity.
  - intros e [<-|[]]. cbn. lia.
Qed.
Lemma margin_lifetime_counter_refuted : exists c, MarginWF c /\ mc_count (import_margin (export_margin c)) <> mc_count c.
Proof. exists mc_example. split; [exact mc_example_wf|]. vm_compute. discriminate. Qed.
Lemma margin_whitelist_refuted : exists c, MarginWF c /\ mc_whitelist (import_margin (export_margin c)) <> mc_whitelist c.
Proof. exists mc_example. split; [exact mc_example_wf|]. vm_compute. discriminate. Qed.
