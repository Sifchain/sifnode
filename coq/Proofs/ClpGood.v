(* The well-formedness that the C01 / C02 history theorems ask of every visited state (pool store in key order, recorded
   amounts non-negative) is itself kept by every delivered transaction: it is a premise on the first state only. *)
From Coq Require Import ZArith Lia Bool List.
From RecordUpdate Require Import RecordUpdate.
From Sif Require Import Base.Outcome Base.SdkMath Base.Store Base.Bank
  Model.ClpCalc Model.ClpTypes Model.ClpState Model.ClpMsgs Proofs.BankProofs Proofs.ClpInv Proofs.ClpUnits Proofs.ClpUnitsHist.
Import ListNotations.
Local Open Scope Z_scope.

(* G for good: the pool store in key order, every pool's balances and custody not negative *)
Definition pool_nn (p : pool) : Prop := 0 <= p_nb p /\ 0 <= p_eb p /\ 0 <= p_nc p /\ 0 <= p_ec p.
Definition GInv (s : clp_state) : Prop := wf (cs_pools s) /\ Forall (fun kv : Z * pool => pool_nn (snd kv)) (cs_pools s).

Lemma GInv_find s a p : GInv s -> get a (cs_pools s) = Some p -> pool_nn p.
Proof. intros [_ Hf] Hg. apply get_in in Hg. exact (proj1 (Forall_forall _ _) Hf _ Hg). Qed.
Lemma GInv_good s : GInv s -> good s.
Proof. intros HG. split; [exact (proj1 HG)|]. intros a p Hg. destruct (GInv_find _ _ _ HG Hg) as (A & B & C & D). auto. Qed.
Lemma GInv_set s s' a p : GInv s -> cs_pools s' = set a p (cs_pools s) -> pool_nn p -> GInv s'.
Proof. intros [Hw Hf] E Hp. unfold GInv. rewrite E. split; [apply wf_set; exact Hw|apply Forall_set; assumption]. Qed.

(* a swap leg lives on the pool store: GInv s is this pair of facts about cs_pools s *)
Lemma leg_GInv tr a z pm f m res m' :
  leg tr a z pm f m res m' -> wf m /\ Forall (fun kv : Z * pool => pool_nn (snd kv)) m ->
  wf m' /\ Forall (fun kv : Z * pool => pool_nn (snd kv)) m'.
Proof.
  intros (p & fee & sp & Hg & Hs & ->) [Hw Hf]. split; [apply wf_set; exact Hw|apply Forall_set; [|exact Hf]].
  apply get_in in Hg. destruct (proj1 (Forall_forall _ _) Hf _ Hg) as (A & B & C & D).
  apply swap_one_inv in Hs. cbv zeta in Hs. destruct Hs as (_ & _ & HX & _ & _ & -> & HY).
  unfold pool_nn, upd_balances. destruct tr; cbn in *; lia.
Qed.

Lemma removed_GInv s sg a s' : GInv s -> removed s sg a s' -> GInv s'.
Proof.
  intros HG (pl & l0 & wn & we & lft & caller & b2 & -> & (_ & Hp & _) & _ & (_ & Hnb & Heb & _) & _).
  destruct (GInv_find _ _ _ HG Hp) as (_ & _ & C & D).
  eapply (GInv_set s); [exact HG|destruct (lft =? 0); reflexivity|]. unfold pool_nn. cbn in *. lia.
Qed.

Lemma handle_GInv s m s' : GInv s -> handle s m = Ok s' -> GInv s'.
Proof.
  intros HG H. destruct m as [sg a n e|sg a n e|sg a w asym|sg a u|sg sa ra amt mn|sg a u|sg a u|sg a|sg cs]; cbn [handle] in H.
  - destruct (create_pool_spec _ _ _ _ _ _ H) as (b2 & -> & _ & _ & Hthr & He & _). unfold POOL_THRESHOLD in Hthr.
    eapply (GInv_set s); [exact HG|reflexivity|]. unfold pool_nn, new_pool. cbn. lia.
  - destruct (add_liquidity_spec _ _ _ _ _ _ H) as (p & pu & lpu & st & sw & b2 & -> & _ & Hp & _ & (_ & _ & Hnb & Heb) & _).
    destruct (GInv_find _ _ _ HG Hp) as (_ & _ & C & D). eapply (GInv_set s); [exact HG|reflexivity|]. unfold pool_nn. cbn. lia.
  - exact (removed_GInv _ _ _ _ HG (remove_liquidity_spec _ _ _ _ _ _ H)).
  - exact (removed_GInv _ _ _ _ HG (remove_liquidity_units_spec _ _ _ _ _ H)).
  - bind_inv H as [s1 emit] Hswap. injection H as <-.
    destruct (swap_inv _ _ _ _ _ _ _ _ Hswap) as (b1 & b2 & mid & pools1 & _ & (Hleg1 & Hleg2) & _).
    apply (leg_GInv _ _ _ _ _ _ _ _ Hleg2).
    destruct (negb (sa =? ROWAN) && negb (ra =? ROWAN)); [exact (leg_GInv _ _ _ _ _ _ _ _ Hleg1 HG)|].
    destruct Hleg1 as [_ ->]. exact HG.
  - destruct (unlock_spec _ _ _ _ _ H) as (l0 & l' & -> & _). exact HG.
  - destruct (cancel_unlock_spec _ _ _ _ _ H) as (l0 & l' & -> & _). exact HG.
  - destruct (decommission_spec _ _ _ _ H) as (pl & b' & -> & _). destruct HG as [Hw Hf].
    split; [exact (wf_del a _ Hw)|exact (Forall_del _ a _ Hf)].
  - destruct (add_to_bucket_spec _ _ _ _ H) as (b' & _ & ->). exact HG.
Qed.

Lemma deliver_GInv s fee m : GInv s -> GInv (fst (deliver s fee m)).
Proof. intros HG. apply deliver_cases; cbv zeta; [exact HG|]. intros s' H. exact (handle_GInv (with_bank s _) m s' HG H). Qed.

Definition signers_ok (txs : list (Z * clp_msg)) : Prop := Forall (fun t => signer_of (snd t) <> CLP_MODULE) txs.

Lemma good_run_of_GInv txs : forall s, GInv s -> signers_ok txs -> good_run s txs.
Proof.
  induction txs as [|[fee m] rest IH]; intros s HG Hs; cbn [good_run]; [exact I|].
  inversion Hs as [|? ? H1 H2]; subst. cbn [snd] in H1. split; [apply GInv_good; exact HG|]. split; [exact H1|].
  apply IH; [apply deliver_GInv; exact HG|exact H2].
Qed.

(* C01 over transaction histories, with a premise on the first state only *)
Theorem run_txs_gap_full txs s : GInv s -> signers_ok txs ->
  forall d, gap s d <= gap (run_txs s txs) d /\
            (forallb (fun t => negb (is_decommission (snd t))) txs = true -> gap (run_txs s txs) d = gap s d).
Proof. intros HG Hs. apply run_txs_gap. apply good_run_of_GInv; assumption. Qed.
Theorem run_txs_solvent_full txs s : GInv s -> signers_ok txs -> solvent s -> solvent (run_txs s txs).
Proof. intros HG Hs. apply run_txs_solvent. apply good_run_of_GInv; assumption. Qed.
Lemma run_txs_GInv txs : forall s, GInv s -> GInv (run_txs s txs).
Proof. induction txs as [|[fee m] rest IH]; intros s HG; cbn [run_txs]; [exact HG|]. apply IH. apply deliver_GInv. exact HG. Qed.

(* C02 over transaction histories: the only condition left along the run is the exclusion of finding F-14 *)
Fixpoint no_one_sided_run (s : clp_state) (txs : list (Z * clp_msg)) : Prop :=
  match txs with
  | [] => True
  | (fee, m) :: rest => not_one_sided_add s m /\ no_one_sided_run (fst (deliver s fee m)) rest
  end.
Lemma units_run_of txs : forall s, GInv s -> no_one_sided_run s txs -> units_run s txs.
Proof.
  induction txs as [|[fee m] rest IH]; intros s HG Hn; cbn [units_run]; [exact I|]. destruct Hn as [H1 H2].
  split; [exact (proj1 HG)|]. split; [exact H1|]. apply IH; [apply deliver_GInv; exact HG|exact H2].
Qed.
Theorem run_txs_UInv_full txs s : GInv s -> no_one_sided_run s txs -> UInv s -> UInv (run_txs s txs).
Proof. intros HG Hn. apply run_txs_UInv. apply units_run_of; assumption. Qed.
