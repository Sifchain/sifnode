(* C17: the relayer's scanning loop (Model/RelayerLoop.v): what it hands over, when, and where it writes its
   cursor; kills included. *)
From Coq Require Import ZArith Lia List Bool.
From Sif Require Import Model.RelayerLoop.
Import ListNotations.
Local Open Scope Z_scope.

Section Proofs.
Variable ev : Z -> list Z.

Lemma range_fuel_In fuel : forall from to b, Z.of_nat fuel >= to - from + 1 ->
  In b (range_fuel fuel from to) <-> from <= b <= to.
Proof.
  induction fuel as [|f IH]; intros from to b Hf.
  - cbn. split; [tauto|]. intros. lia.
  - cbn [range_fuel]. destruct (Z.ltb_spec to from).
    + cbn. split; [tauto|lia].
    + cbn [In]. rewrite IH by lia. lia.
Qed.

Lemma range_In from to b : In b (range from to) <-> from <= b <= to.
Proof. unfold range. apply range_fuel_In. lia. Qed.

Lemma events_in_In from to b e : In (b, e) (events_in ev from to) <-> from <= b <= to /\ In e (ev b).
Proof.
  unfold events_in. rewrite in_concat. split.
  - intros (l & Hl & Hin). apply in_map_iff in Hl. destruct Hl as (b' & <- & Hb'). apply in_map_iff in Hin.
    destruct Hin as (e' & [= <- <-] & He'). apply range_In in Hb'. auto.
  - intros (Hb & He). exists (map (fun e0 => (b, e0)) (ev b)). split.
    + apply in_map_iff. exists b. split; [reflexivity|apply range_In; exact Hb].
    + apply in_map_iff. exists e. auto.
Qed.

(* every event of every block in [lo, hi) has been handed to submission *)
Definition covered (sub : list (Z * Z)) (lo hi : Z) : Prop :=
  forall b e, lo <= b < hi -> In e (ev b) -> In (b, e) sub.

Lemma covered_mono sub sub' lo hi hi' : covered sub lo hi -> hi' <= hi -> (forall x, In x sub -> In x sub') -> covered sub' lo hi'.
Proof. intros H Hh Hs b e Hb He. apply Hs, H; [lia|exact He]. Qed.

Definition Inv (s : rstate) : Prop :=
  (forall b e, In (b, e) (r_submitted s) -> b <= r_maxhead s - TRAILING /\ In e (ev b)) /\
  covered (r_submitted s) (r_lo s) (r_persisted s) /\
  (r_cursor s = 0 -> r_persisted s = 0) /\
  match r_pc s with
  | Idle => covered (r_submitted s) (r_lo s) (r_cursor s)
  | Fetched from to evs =>
    from = r_cursor s /\ evs = events_in ev from to /\ covered (r_submitted s) (r_lo s) (r_cursor s) /\ to <= r_maxhead s - TRAILING
  | Handed to => covered (r_submitted s) (r_lo s) (to + 1)
  end.

Lemma Inv_init : Inv init.
Proof. unfold Inv, init, covered. cbn. repeat split; intros; try contradiction; try lia. Qed.

(* where a scan starts: an in-memory cursor of 0 is replaced by the end of the range *)
Definition start_cur (s : rstate) (e : Z) : Z := if r_cursor s =? 0 then e else r_cursor s.
Definition start_lo (s : rstate) (e : Z) : Z := if r_cursor s =? 0 then e else r_lo s.

Inductive step_rel (s : rstate) : input -> rstate -> Prop :=
| st_kill :
    step_rel s Kill (mkR Idle (r_persisted s) (r_persisted s) (r_submitted s) (r_maxhead s) (if r_persisted s =? 0 then 0 else r_lo s))
| st_head_busy n ok : r_pc s <> Idle -> step_rel s (Head n ok) s
| st_head_early n ok : r_pc s = Idle -> n - TRAILING < 0 ->
    step_rel s (Head n ok) (mkR Idle (r_cursor s) (r_persisted s) (r_submitted s) (Z.max (r_maxhead s) n) (r_lo s))
| st_head_fail n : r_pc s = Idle -> 0 <= n - TRAILING ->
    step_rel s (Head n false)
      (mkR Idle (start_cur s (n - TRAILING)) (r_persisted s) (r_submitted s) (Z.max (r_maxhead s) n) (start_lo s (n - TRAILING)))
| st_head_empty n : r_pc s = Idle -> 0 <= n - TRAILING ->
    events_in ev (start_cur s (n - TRAILING)) (n - TRAILING) = [] ->
    step_rel s (Head n true)
      (mkR Idle (n - TRAILING + 1) (n - TRAILING + 1) (r_submitted s) (Z.max (r_maxhead s) n) (start_lo s (n - TRAILING)))
| st_head_fetch n evs : r_pc s = Idle -> 0 <= n - TRAILING ->
    events_in ev (start_cur s (n - TRAILING)) (n - TRAILING) = evs -> evs <> [] ->
    step_rel s (Head n true)
      (mkR (Fetched (start_cur s (n - TRAILING)) (n - TRAILING) evs) (start_cur s (n - TRAILING)) (r_persisted s) (r_submitted s)
           (Z.max (r_maxhead s) n) (start_lo s (n - TRAILING)))
| st_tick_idle : r_pc s = Idle -> step_rel s Tick s
| st_tick_fetched from to evs : r_pc s = Fetched from to evs ->
    step_rel s Tick (mkR (Handed to) (r_cursor s) (r_persisted s) (r_submitted s ++ evs) (r_maxhead s) (r_lo s))
| st_tick_handed to : r_pc s = Handed to ->
    step_rel s Tick (mkR Idle (to + 1) (to + 1) (r_submitted s) (r_maxhead s) (r_lo s)).

Lemma step_spec s i : step_rel s i (step ev s i).
Proof.
  destruct i as [n ok| |]; unfold step.
  - destruct (r_pc s) eqn:Epc; [|apply st_head_busy; congruence|apply st_head_busy; congruence].
    destruct (Z.ltb_spec (n - TRAILING) 0); [apply st_head_early; assumption|].
    fold (start_cur s (n - TRAILING)) (start_lo s (n - TRAILING)).
    destruct ok; cbn [negb]; [|apply st_head_fail; assumption].
    destruct (events_in ev (start_cur s (n - TRAILING)) (n - TRAILING)) eqn:Ee;
      [apply st_head_empty; assumption|apply st_head_fetch; [assumption|assumption|exact Ee|discriminate]].
  - destruct (r_pc s) eqn:Epc; [apply st_tick_idle|eapply st_tick_fetched|apply st_tick_handed]; exact Epc.
  - apply st_kill.
Qed.

Lemma Inv_start s e : Inv s -> r_pc s = Idle -> 0 <= e ->
  covered (r_submitted s) (start_lo s e) (r_persisted s) /\
  covered (r_submitted s) (start_lo s e) (start_cur s e) /\
  (start_cur s e = 0 -> r_persisted s = 0).
Proof.
  intros (_ & HP & HZ & HC) Epc He. rewrite Epc in HC. unfold start_lo, start_cur.
  destruct (Z.eqb_spec (r_cursor s) 0) as [E0|]; [|auto].
  rewrite (HZ E0). split; [|split; [|auto]]; intros b e0 Hb; lia.
Qed.

Lemma Inv_step s i : Inv s -> Inv (step ev s i).
Proof.
  intros HI. pose proof HI as (HA & HP & HZ & HC).
  assert (HA' : forall n b e, In (b, e) (r_submitted s) -> b <= Z.max (r_maxhead s) n - TRAILING /\ In e (ev b)).
  { intros n b e0 Hin. destruct (HA _ _ Hin). split; [lia|assumption]. }
  destruct (step_spec s i) as [|n ok Hpc|n ok Epc Hn|n Epc Hn|n Epc Hn Ee|n evs Epc Hn Ee Hne|Epc|from to evs Epc|to Epc];
    try exact HI; unfold Inv; cbn [r_pc r_cursor r_persisted r_submitted r_maxhead r_lo].
  - (* kill and restart *)
    split; [exact HA|]. destruct (Z.eqb_spec (r_persisted s) 0) as [E0|].
    + rewrite E0. split; [intros b e0 Hb; lia|]. split; [reflexivity|intros b e0 Hb; lia].
    + split; [exact HP|]. split; [intros; assumption|exact HP].
  - rewrite Epc in HC. auto.
  - destruct (Inv_start s (n - TRAILING) HI Epc Hn) as (HPl & HCl & HZ'). auto.
  - (* an empty range: the cursor is persisted at once *)
    destruct (Inv_start s (n - TRAILING) HI Epc Hn) as (HPl & HCl & HZ').
    assert (Hcov : covered (r_submitted s) (start_lo s (n - TRAILING)) (n - TRAILING + 1)).
    { intros b e0 Hb He. destruct (Z.lt_ge_cases b (start_cur s (n - TRAILING))) as [Hlt|Hge]; [apply HCl; [lia|exact He]|].
      exfalso. assert (Hin : In (b, e0) (events_in ev (start_cur s (n - TRAILING)) (n - TRAILING))) by (apply events_in_In; split; [lia|exact He]).
      rewrite Ee in Hin. contradiction. }
    split; [apply HA'|]. split; [exact Hcov|]. split; [lia|exact Hcov].
  - destruct (Inv_start s (n - TRAILING) HI Epc Hn) as (HPl & HCl & HZ').
    split; [apply HA'|]. split; [exact HPl|]. split; [exact HZ'|].
    split; [reflexivity|]. split; [symmetry; exact Ee|]. split; [exact HCl|lia].
  - (* the fetched events are handed over *)
    rewrite Epc in HC. destruct HC as (-> & -> & HC & Hto).
    split.
    { intros b e0 Hin. apply in_app_or in Hin. destruct Hin as [Hin|Hin]; [apply HA; exact Hin|].
      apply events_in_In in Hin. destruct Hin as (Hb & He). split; [lia|exact He]. }
    split; [eapply covered_mono; [exact HP|lia|intros; apply in_or_app; auto]|].
    split; [exact HZ|].
    intros b e0 Hb He. apply in_or_app. destruct (Z.lt_ge_cases b (r_cursor s)) as [Hlt|Hge].
    + left. apply HC; [lia|exact He].
    + right. apply events_in_In. split; [lia|exact He].
  - rewrite Epc in HC. split; [exact HA|]. split; [exact HC|]. split; [lia|exact HC].
Qed.

Theorem Inv_run : forall is s, Inv s -> Inv (run ev s is).
Proof. unfold run. induction is as [|i is IH]; intros s H; cbn [fold_left]; [exact H|]. apply IH, Inv_step, H. Qed.

(* confirmation depth: whatever the header schedule, failures and kills, a submitted event lies at least 50 blocks
   behind the newest header seen, and is an event of that block *)
Theorem confirmations : forall is b e,
  In (b, e) (r_submitted (run ev init is)) -> b + TRAILING <= r_maxhead (run ev init is) /\ In e (ev b).
Proof.
  intros is b e Hin. destruct (Inv_run is init Inv_init) as (HA & _). destruct (HA _ _ Hin) as (H1 & H2).
  split; [lia|exact H2].
Qed.

(* no gaps: every event of every block between the start of the scan and the persisted cursor has been handed over *)
Theorem no_gap : forall is, let s := run ev init is in covered (r_submitted s) (r_lo s) (r_persisted s).
Proof. intros is. apply (Inv_run is init Inv_init). Qed.

(* a kill resumes at the persisted cursor with nothing in progress, and loses no submission already made *)
Theorem kill_resumes : forall s, let s' := step ev s Kill in
  r_pc s' = Idle /\ r_cursor s' = r_persisted s /\ r_persisted s' = r_persisted s /\ r_submitted s' = r_submitted s.
Proof. intros s. cbn. auto. Qed.

(* from the cursor, one undisturbed iteration on a header at least 50 ahead hands over every event of
   [cursor, n-50] and only then persists n-49 *)
Theorem resume_covers : forall s n,
  r_pc s = Idle -> 0 < r_cursor s -> r_cursor s <= n - TRAILING ->
  let s' := run ev s [Head n true; Tick; Tick] in
  r_pc s' = Idle /\ r_persisted s' = n - TRAILING + 1 /\ r_cursor s' = n - TRAILING + 1 /\
  (forall b e, r_cursor s <= b <= n - TRAILING -> In e (ev b) -> In (b, e) (r_submitted s')) /\
  (forall x, In x (r_submitted s) -> In x (r_submitted s')).
Proof.
  intros s n Hpc Hc Hle. unfold run. cbn [fold_left].
  assert (E1 : step ev s (Head n true) =
     match events_in ev (r_cursor s) (n - TRAILING) with
     | [] => mkR Idle (n - TRAILING + 1) (n - TRAILING + 1) (r_submitted s) (Z.max (r_maxhead s) n) (r_lo s)
     | evs => mkR (Fetched (r_cursor s) (n - TRAILING) evs) (r_cursor s) (r_persisted s) (r_submitted s) (Z.max (r_maxhead s) n) (r_lo s)
     end).
  { unfold step. rewrite Hpc. destruct (Z.ltb_spec (n - TRAILING) 0); [unfold TRAILING in *; lia|].
    destruct (Z.eqb_spec (r_cursor s) 0); [lia|]. reflexivity. }
  rewrite E1. destruct (events_in ev (r_cursor s) (n - TRAILING)) as [|x evs] eqn:Ee.
  - cbn. split; [reflexivity|]. split; [reflexivity|]. split; [reflexivity|]. split; [|auto].
    intros b e Hb He. exfalso.
    assert (Hin : In (b, e) (events_in ev (r_cursor s) (n - TRAILING))) by (apply events_in_In; auto). rewrite Ee in Hin. contradiction.
  - cbn. split; [reflexivity|]. split; [reflexivity|]. split; [reflexivity|]. split.
    + intros b e Hb He. apply in_or_app. right. rewrite <- Ee. apply events_in_In. auto.
    + intros y Hy. apply in_or_app. auto.
Qed.

Theorem persist_only_after : forall s i, Inv s ->
  r_persisted (step ev s i) <> r_persisted s ->
  (exists to, r_pc s = Handed to /\ i = Tick /\ r_persisted (step ev s i) = to + 1) \/
  (exists n, i = Head n true /\ r_pc s = Idle /\ r_persisted (step ev s i) = n - TRAILING + 1 /\
             events_in ev (if r_cursor s =? 0 then n - TRAILING else r_cursor s) (n - TRAILING) = []).
Proof.
  intros s i _ Hne.
  destruct (step_spec s i) as [|n ok Hpc|n ok Epc Hn|n Epc Hn|n Epc Hn Ee|n evs Epc Hn Ee Hnil|Epc|from to evs Epc|to Epc];
    cbn [r_persisted] in *; try contradiction.
  - right. exists n. auto.
  - left. exists to. auto.
Qed.

Theorem submitted_grows : forall s i x, In x (r_submitted s) -> In x (r_submitted (step ev s i)).
Proof.
  intros s i x Hin. destruct (step_spec s i); cbn [r_submitted]; try exact Hin. apply in_or_app. auto.
Qed.
End Proofs.

(* an event the relayer cannot translate hides no other event: one undisturbed iteration from the cursor hands over every
   burn / lock event of [cursor, n-50], and the claims made of what was handed over hold every translatable one of them -
   whatever untranslatable events stand before or after it in its block or range - and nothing but translatable events that
   were handed over *)
Theorem untranslatable_hide_nothing : forall tr ev s n,
  r_pc s = Idle -> 0 < r_cursor s -> r_cursor s <= n - TRAILING ->
  let s' := run ev s [Head n true; Tick; Tick] in
  r_persisted s' = n - TRAILING + 1 /\
  (forall b e, r_cursor s <= b <= n - TRAILING -> In e (ev b) -> tr e = true -> In (b, e) (handle_events tr (r_submitted s'))) /\
  (forall b e, In (b, e) (handle_events tr (r_submitted s')) -> tr e = true /\ In (b, e) (r_submitted s')).
Proof.
  intros tr ev s n Hpc Hc Hle s'.
  destruct (resume_covers ev s n Hpc Hc Hle) as (_ & Hp & _ & Hcov & _).
  split; [exact Hp|]. split.
  - intros b e Hb He Ht. unfold handle_events. apply filter_In. split; [apply Hcov; assumption|exact Ht].
  - intros b e Hin. unfold handle_events in Hin. apply filter_In in Hin. cbn [snd] in Hin. tauto.
Qed.
Lemma handle_events_app tr l1 l2 : handle_events tr (l1 ++ l2) = handle_events tr l1 ++ handle_events tr l2.
Proof. unfold handle_events. apply filter_app. Qed.
