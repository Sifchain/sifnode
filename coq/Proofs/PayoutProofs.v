(* C18: what the payout calculators of Model/ClpRewards.v hand out is pro rata up to rounding (bucket shares, the
   per-provider amount, the split between pools, the clamped loop), and transfer_generic pays only its recipients. *)
From Coq Require Import ZArith Lia Bool List.
From Sif Require Import Base.Outcome Base.SdkMath.
From Sif Require Export Proofs.SdkMathProofs.
From Sif Require Import Model.ClpRewards Base.Store Base.Bank Model.ClpTypes Model.ClpState Model.ClpHooks Proofs.BankProofs.
Import ListNotations.
Local Open Scope Z_scope.

(* trunc( quo(a, T) * b / D ) against a*b/T (a, T scaled alike): above by at most b/(2D), below by less
   than 1 + b/(2D) + b/D^2 *)
Lemma share_trunc_tight a T b :
  0 <= a -> 0 < T -> 0 <= b ->
  let amt := dec_trunc_int (dec_quo a T * b) in
  0 <= amt /\
  2 * T * PREC * amt <= 2 * a * PREC * b + T * b /\
  2 * a * b * PREC * PREC < 2 * T * PREC * PREC * (amt + 1) + T * PREC * b + 2 * T * b.
Proof.
  intros Ha HT Hb amt. pose proof PREC_pos as HP.
  destruct (dec_quo_scaled a T b Ha HT Hb) as (Hq & Hh & Hl). cbv zeta in Hq, Hh, Hl.
  set (q := dec_quo a T) in *.
  assert (Hqb : 0 <= q * b) by (apply Z.mul_nonneg_nonneg; assumption).
  destruct (dec_trunc_bounds (q * b) Hqb) as (Tl & Th). fold amt in Tl, Th.
  split; [apply dec_trunc_int_nonneg; exact Hqb|]. split.
  - assert (2 * T * (PREC * amt) <= 2 * T * (q * b)) by (apply Z.mul_le_mono_nonneg_l; lia). lia.
  - assert (2 * PREC * T * (q * b) < 2 * PREC * T * (PREC * amt + PREC)) by (apply Z.mul_lt_mono_pos_l; nia). lia.
Qed.

(* bucket share: amt = trunc( quo(u, T) * bucket ) is within 1 + bucket/10^18 of bucket*u/T *)
Definition bucket_amount (u total bucket : Z) : Z :=
  dec_trunc_int (dec_mul_int (dec_quo (dec_of_int u) (dec_of_int total)) bucket).

Lemma bucket_amount_bounds u T b :
  0 <= u -> 0 < T -> 0 <= b ->
  let amt := bucket_amount u T b in
  0 <= amt /\
  T * PREC * amt <= u * b * PREC + T * b /\                      (* amt <= b*u/T + b/10^18 *)
  u * b * PREC < T * PREC * (amt + 1) + T * b.                    (* amt > b*u/T - 1 - b/10^18 *)
Proof.
  intros Hu HT Hb amt. unfold amt, bucket_amount, dec_mul_int. pose proof PREC_ge2 as HP.
  rewrite dec_quo_of_int by lia.
  destruct (share_trunc_tight u T b Hu HT Hb) as (H0 & Hh & Hl). cbv zeta in H0, Hh, Hl.
  set (r := dec_trunc_int (dec_quo u T * b)) in *.
  assert (Tb : 0 <= T * b) by (apply Z.mul_nonneg_nonneg; lia).
  split; [exact H0|]. split; [lia|].
  assert (T * b * 2 <= T * b * PREC) by (apply Z.mul_le_mono_nonneg_l; assumption).
  apply (Z.mul_lt_mono_pos_r (2 * PREC)); lia.
Qed.

(* r = round(round(X / D) / D), where X (= q * pd) lies between the bounds that dec_quo_scaled gives *)
Lemma provider_core D P u pd X m r :
  2 <= D -> 0 < P ->
  2 * P * X <= (2 * u * D + P) * pd ->
  (2 * u * D * D - D * P - 2 * P) * pd <= 2 * D * P * X ->
  2 * X - D <= 2 * D * m <= 2 * X + D ->
  2 * m - D <= 2 * D * r <= 2 * m + D ->
  P * D * D * r <= u * pd * D + P * D * D + P * pd /\
  u * pd * D <= P * D * D * r + P * D * D + P * pd.
Proof.
  intros HD HP Hh Hl Hm Hr.
  (* 4 D^2 r <= 4 X + 2D + 2D^2   and   4 D^2 r >= 4 X - 2D - 2D^2 *)
  assert (U1 : 4 * D * D * r <= 4 * X + 2 * D + 2 * D * D) by nia.
  assert (L1 : 4 * X - 2 * D - 2 * D * D <= 4 * D * D * r) by nia.
  assert (U2 : P * (4 * D * D * r) <= P * (4 * X + 2 * D + 2 * D * D)) by (apply Z.mul_le_mono_nonneg_l; lia).
  assert (L2 : D * P * (4 * X - 2 * D - 2 * D * D) <= D * P * (4 * D * D * r)) by (apply Z.mul_le_mono_nonneg_l; nia).
  assert (Ppd : 0 <= P * pd) by nia.
  assert (PD : P * D <= P * D * D) by nia.
  split; [lia|].
  assert (P * D * D <= P * D * D * D) by nia.
  assert (P * pd * 2 <= P * pd * D) by (apply Z.mul_le_mono_nonneg_l; assumption).
  apply (Z.mul_le_mono_pos_l _ _ (4 * D)); lia.
Qed.

(* LPPD / depth-reward per-provider amount: round( round(quo(u,P) * pd) ) is within 1 + pd/10^36 of pd*u/(P*10^18),
   where pd is the Dec (10^18-scaled) amount to distribute for the pool *)
Lemma calc_provider_amount_bounds pd P u :
  0 <= pd -> 0 < P -> 0 <= u ->
  let r := calc_provider_amount pd P u in
  0 <= r /\
  P * PREC * PREC * r <= u * pd * PREC + P * PREC * PREC + P * pd /\
  u * pd * PREC <= P * PREC * PREC * r + P * PREC * PREC + P * pd.
Proof.
  intros Hpd HP Hu r. unfold r, calc_provider_amount. destruct (Z.eqb_spec P 0) as [E0|_]; [lia|].
  rewrite dec_quo_of_int by lia.
  destruct (dec_quo_scaled u P pd Hu HP Hpd) as (Hq & Hh & Hl). cbv zeta in Hq, Hh, Hl.
  set (q := dec_quo u P) in *.
  assert (Hm0 : 0 <= dec_mul q pd) by (apply dec_mul_nonneg; assumption).
  split; [apply dec_round_int_nonneg; exact Hm0|].
  exact (provider_core PREC P u pd (q * pd) _ _ PREC_ge2 HP Hh Hl (dec_mul_bounds q pd Hq Hpd) (dec_round_bounds _ Hm0)).
Qed.

(* depth rewards: a pool's part of the block distribution against bd * w / W, w = nb*mult, W = total depth *)
Lemma calc_pool_distribution_bounds mult nb td bd :
  0 <= mult -> 0 <= nb -> 0 < td -> 0 <= bd ->
  let w := dec_mul (dec_of_int nb) mult in
  let d := calc_pool_distribution mult nb td bd in
  0 <= d /\
  2 * td * d <= 2 * w * bd + td * bd /\
  2 * w * bd * PREC < 2 * td * PREC * (d + 1) + td * PREC * bd + 2 * td * bd.
Proof.
  intros Hm Hnb Htd Hbd w d. unfold d, calc_pool_distribution. fold w. pose proof PREC_pos as HP.
  assert (Hw : 0 <= w) by (apply dec_mul_nonneg; unfold dec_of_int; nia).
  rewrite dec_mul_of_int_r by (try apply dec_quo_nonneg; assumption).
  destruct (share_trunc_tight w td bd Hw Htd Hbd) as (H0 & Hh & Hl). cbv zeta in H0, Hh, Hl.
  set (r := dec_trunc_int (dec_quo w td * bd)) in *.
  assert (Tb : 0 <= td * bd) by (apply Z.mul_nonneg_nonneg; lia).
  assert (td * bd * 1 <= td * bd * PREC) by (apply Z.mul_le_mono_nonneg_l; lia).
  split; [exact H0|]. split.
  - apply (Z.mul_le_mono_pos_r _ _ PREC HP). lia.
  - assert (td * bd * PREC * 1 <= td * bd * PREC * PREC) by (apply Z.mul_le_mono_nonneg_l; lia).
    apply (Z.mul_lt_mono_pos_r PREC _ _ HP). lia.
Qed.

Definition asum (l : list (Z * Z)) : Z := fold_right (fun e acc => snd e + acc) 0 l.

(* the clamped loop: the running total never passes the rounded pool amount, every provider gets a
   non-negative amount no larger than its unclamped share, the amounts add up to the total,
   and exactly the given providers (in order) are paid *)
Lemma collect_pd_loop_spec pd pdu P : forall lps total,
  0 <= pd -> 0 < P -> 0 <= total <= pdu -> Forall (fun l => 0 <= snd l) lps ->
  let '(out, tot) := collect_pd_loop pd pdu P lps total in
  total <= tot <= pdu /\ asum out = tot - total /\ map fst out = map fst lps /\
  Forall2 (fun l o => 0 <= snd o <= calc_provider_amount pd P (snd l)) lps out.
Proof.
  induction lps as [|[addr u] rest IH]; intros total Hpd HP Ht Hall; cbn [collect_pd_loop].
  - cbn. repeat split; try lia. constructor.
  - inversion Hall as [|? ? Hu Hrest]; subst. cbn [snd] in Hu.
    destruct (calc_provider_amount_bounds pd P u Hpd HP Hu) as (Hr0 & _).
    set (pr := calc_provider_amount pd P u) in *.
    set (t2 := if pdu <? total + pr then pdu else total + pr).
    assert (Ht2 : total <= t2 <= pdu /\ t2 - total <= pr) by (unfold t2; destruct (Z.ltb_spec pdu (total + pr)); lia).
    replace (if pdu <? total + pr then (pdu - (total + pr - pr), pdu) else (pr, total + pr)) with (t2 - total, t2)
      by (unfold t2; destruct (pdu <? total + pr); f_equal; lia).
    specialize (IH t2 Hpd HP ltac:(lia) Hrest).
    destruct (collect_pd_loop pd pdu P rest t2) as [out tot]. destruct IH as (I1 & I2 & I3 & I4).
    cbn [asum fold_right snd map fst]. fold (asum out).
    repeat split; try lia; [f_equal; exact I3|]. constructor; [cbn [snd]; lia|exact I4].
Qed.

(* LPPD for one pool: takes at most round(rate * native balance) from the pool, what it takes is what its
   providers receive, each within its pro-rata share *)
Lemma collect_provider_distribution_spec depth rate P lps :
  0 <= depth -> 0 <= rate -> 0 < P -> Forall (fun l => 0 <= snd l) lps ->
  let pd := dec_mul rate depth in
  let '(out, tot) := collect_provider_distribution depth rate P lps in
  0 <= tot <= dec_round_int pd /\ asum out = tot /\ map fst out = map fst lps /\
  Forall2 (fun l o => 0 <= snd o <= calc_provider_amount pd P (snd l)) lps out.
Proof.
  intros Hd Hr HP Hall pd. unfold collect_provider_distribution. fold pd.
  assert (Hpd : 0 <= pd) by (apply dec_mul_nonneg; assumption).
  pose proof (collect_pd_loop_spec pd (dec_round_int pd) P lps 0 Hpd HP
                ltac:(split; [lia|apply dec_round_int_nonneg; assumption]) Hall) as H.
  destruct (collect_pd_loop pd (dec_round_int pd) P lps 0) as [out tot].
  destruct H as (H1 & H2 & H3 & H4). repeat split; try lia; assumption.
Qed.


(* payouts go only to the addresses of the distribution lists (the module account pays), and only in the
   native token: every other balance stays *)
Lemma transfer_generic_untouched order : forall b ds b' failed a d,
  transfer_generic b order ds = (b', failed) ->
  d <> ROWAN \/ (~ In a order /\ a <> CLP_MODULE) -> bal b' a d = bal b a d.
Proof.
  induction order as [|x rest IH]; intros b ds b' failed a d H Hout; cbn [transfer_generic] in H.
  - injection H as <- _. reflexivity.
  - assert (Hout' : d <> ROWAN \/ (~ In a rest /\ a <> CLP_MODULE)) by (cbn [In] in Hout; tauto).
    destruct (send b CLP_MODULE x ROWAN (addr_total x ds)) as [b1|] eqn:Hs.
    + rewrite (IH _ _ _ _ a d H Hout'). apply send_effect in Hs. destruct Hs as (_ & Hb & _). rewrite Hb.
      destruct (Z.eqb_spec d ROWAN); [|rewrite !andb_false_r; lia].
      destruct (Z.eqb_spec a CLP_MODULE); [tauto|]. destruct (Z.eqb_spec a x); [subst; cbn [In] in Hout; tauto|].
      cbn [andb]. lia.
    + destruct (transfer_generic b rest ds) as [b2 f2] eqn:Hr. injection H as <- _. exact (IH _ _ _ _ a d Hr Hout').
Qed.

Lemma transfer_generic_frame order b ds b' failed a d :
  transfer_generic b order ds = (b', failed) ->
  ~ In a order -> a <> CLP_MODULE -> bal b' a d = bal b a d.
Proof. intros H Hnin Hm. apply (transfer_generic_untouched _ _ _ _ _ _ _ H). auto. Qed.

Lemma transfer_generic_denoms order b ds b' failed a d :
  transfer_generic b order ds = (b', failed) -> d <> ROWAN -> bal b' a d = bal b a d.
Proof. intros H Hd. apply (transfer_generic_untouched _ _ _ _ _ _ _ H). auto. Qed.

Lemma inb_In a l : inb a l = true <-> In a l.
Proof.
  unfold inb. rewrite existsb_exists. split.
  - intros (x & Hx & E). apply Z.eqb_eq in E. subst. exact Hx.
  - intros H. exists a. split; [exact H|apply Z.eqb_refl].
Qed.

Lemma inb_notin a l : ~ In a l -> inb a l = false.
Proof. intros H. apply not_true_is_false. rewrite inb_In. exact H. Qed.

Lemma get_upd_pool k f (m : store pool) d : get d (upd_pool k f m) = if d =? k then option_map f (get k m) else get d m.
Proof.
  unfold upd_pool. destruct (Z.eqb_spec d k) as [->|Hne]; destruct (get k m) as [p|] eqn:Hg;
  rewrite ?get_set_same, ?get_set_other by exact Hne; auto.
Qed.
