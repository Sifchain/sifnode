(* C20, ecosystem mint: one block of the dispensation BeginBlocker in closed form under WF, and the cap over any number
   of blocks. *)
From Coq Require Import ZArith List Bool Lia.
From Sif Require Import Base.Outcome Model.Mint.
Local Open Scope Z_scope.

Lemma per_pos : 0 < MINT_PER_BLOCK. Proof. reflexivity. Qed.
Lemma per_le_max : MINT_PER_BLOCK <= MAX_MINT. Proof. discriminate. Qed.
Global Opaque MAX_MINT MINT_PER_BLOCK.

Definition WF (s : mstate) : Prop :=
  m_found s = true /\ 0 <= m_counter s <= MAX_MINT /\ m_eco_blocked s = false.

(* a block mints min(per block, what is left under the cap), and the send to the ecosystem pool goes through *)
Lemma begin_block_eq s : WF s ->
  let amt := Z.min MINT_PER_BLOCK (MAX_MINT - m_counter s) in
  begin_block s =
    if amt =? 0 then (s, 0) else
      ({| m_found := true; m_counter := m_counter s + amt; m_eco := m_eco s + amt;
          m_module := m_module s + amt - amt; m_supply := m_supply s + amt; m_eco_blocked := false |}, amt).
Proof.
  destruct s as [fd c e m su bl]. unfold WF. cbn [m_found m_counter m_eco_blocked]. intros (-> & Hc & ->).
  pose proof per_pos as HP.
  unfold begin_block, tokens_can_be_minted, is_last_block. cbn [m_found m_counter m_eco m_module m_supply m_eco_blocked andb].
  replace (if MAX_MINT - c <=? MINT_PER_BLOCK then MAX_MINT - c else MINT_PER_BLOCK)
    with (Z.min MINT_PER_BLOCK (MAX_MINT - c)) by (destruct (Z.leb_spec (MAX_MINT - c) MINT_PER_BLOCK); lia).
  set (amt := Z.min MINT_PER_BLOCK (MAX_MINT - c)).
  destruct (Z.ltb_spec c MAX_MINT) as [Hlt|Hge]; cbn [negb].
  - destruct (Z.leb_spec amt 0); [lia|]. destruct (Z.eqb_spec amt 0); [lia|]. reflexivity.
  - replace amt with 0 by lia. reflexivity.
Qed.

Lemma begin_block_spec s :
  WF s ->
  WF (fst (begin_block s)) /\
  snd (begin_block s) = Z.min MINT_PER_BLOCK (MAX_MINT - m_counter s) /\
  0 <= snd (begin_block s) /\
  m_counter (fst (begin_block s)) = m_counter s + snd (begin_block s) /\
  m_eco (fst (begin_block s)) = m_eco s + snd (begin_block s) /\
  m_supply (fst (begin_block s)) = m_supply s + snd (begin_block s) /\
  m_module (fst (begin_block s)) = m_module s.
Proof.
  intros Hwf. rewrite (begin_block_eq s Hwf). cbv zeta. pose proof per_pos as HP.
  destruct Hwf as (Hf & Hc & Hb). set (amt := Z.min MINT_PER_BLOCK (MAX_MINT - m_counter s)).
  destruct (Z.eqb_spec amt 0) as [E|E]; unfold WF; cbn [fst snd m_found m_counter m_eco m_module m_supply m_eco_blocked];
    repeat split; try assumption; lia.
Qed.

Lemma run_spec n : forall s,
  WF s ->
  WF (fst (run n s)) /\
  m_counter (fst (run n s)) = Z.min MAX_MINT (m_counter s + Z.of_nat n * MINT_PER_BLOCK) /\
  snd (run n s) = m_counter (fst (run n s)) - m_counter s /\
  m_eco (fst (run n s)) = m_eco s + snd (run n s) /\
  m_supply (fst (run n s)) = m_supply s + snd (run n s) /\
  m_module (fst (run n s)) = m_module s.
Proof.
  pose proof per_pos as HP.
  induction n as [|n IH]; intros s Hwf.
  - cbn [run fst snd]. destruct Hwf as (Hf & Hc & Hb). unfold WF. repeat split; try assumption; try lia.
  - cbn [run]. pose proof (begin_block_spec s Hwf) as H1.
    destruct (begin_block s) as [s1 a]. cbn [fst snd] in H1.
    destruct H1 as (Hwf1 & Ha & Ha0 & Hc1 & He1 & Hs1 & Hm1).
    specialize (IH s1 Hwf1). destruct (run n s1) as [s2 b]. cbn [fst snd] in *.
    destruct IH as (Hwf2 & Hc2 & Hb2 & He2 & Hs2 & Hm2).
    destruct Hwf as (Hf & Hc & Hb).
    repeat split; try apply Hwf2; try lia.
Qed.

(* after the cap is reached nothing is minted *)
Lemma capped_mints_nothing s : m_counter s = MAX_MINT -> begin_block s = (s, 0).
Proof.
  intros Heq. unfold begin_block, tokens_can_be_minted. rewrite Heq.
  rewrite Z.ltb_irrefl, andb_false_r. reflexivity.
Qed.

(* no controller record: nothing is minted *)
Lemma no_controller_mints_nothing s : m_found s = false -> begin_block s = (s, 0).
Proof. intros Hf. unfold begin_block, tokens_can_be_minted. rewrite Hf. reflexivity. Qed.
