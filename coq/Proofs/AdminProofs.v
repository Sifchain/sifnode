(* C08: a privileged message whose signer does not hold the role its handler checks first fails and changes nothing;
   the role table takes effect at once (holds_table: a table role is held iff its entry is in the table). *)
From Coq Require Import ZArith List Bool String Lia.
From Sif Require Import Base.Outcome Model.Admin.
Import ListNotations.
Local Open Scope Z_scope.

Lemma role_eqb_refl r : role_eqb r r = true. Proof. destruct r; reflexivity. Qed.
Lemma role_eqb_eq a b : role_eqb a b = true -> a = b. Proof. destruct a, b; cbn; congruence. Qed.

Section Handler.
  Variable St Payload : Type.
  Variable effect : St -> Payload -> Outcome St.

  (* a privileged message from a signer that does not hold the matching role is rejected, state unchanged *)
  Lemma reject au st idx signer p r :
    required_role idx = Some r -> holds au r signer = false ->
    handle_priv St Payload effect au st idx signer p = Err 1 /\
    deliver_priv St Payload effect au st idx signer p = (st, false).
  Proof. intros Hr Hh. unfold deliver_priv, handle_priv. rewrite Hr, Hh. auto. Qed.

  Lemma authorised_runs_effect au st idx signer p r :
    required_role idx = Some r -> holds au r signer = true ->
    handle_priv St Payload effect au st idx signer p = effect st p.
  Proof. intros Hr Hh. unfold handle_priv. rewrite Hr, Hh. reflexivity. Qed.
End Handler.

Definition table_role (r : role) : bool :=
  match r with R_ORACLE_ADMIN | R_CLP_WHITELIST => false | _ => true end.

Lemma entry_eqb_true r a (e : role * Z) : role_eqb (fst e) r && (snd e =? a) = true <-> e = (r, a).
Proof.
  destruct e as [r0 a0]. cbn [fst snd]. rewrite andb_true_iff, Z.eqb_eq. split.
  - intros (H1 & ->). apply role_eqb_eq in H1. congruence.
  - intros [= -> ->]. rewrite role_eqb_refl. auto.
Qed.

(* the six roles of the x/admin table are held by exactly the entries of the table *)
Lemma holds_table s r a : table_role r = true -> holds s r a = true <-> In (r, a) (au_admins s).
Proof.
  intros Ht.
  assert (E : holds s r a = existsb (fun e => role_eqb (fst e) r && (snd e =? a)) (au_admins s))
    by (destruct r; try discriminate Ht; reflexivity).
  rewrite E, existsb_exists. split.
  - intros (e & Hin & He). apply entry_eqb_true in He. subst e. exact Hin.
  - intros Hin. exists (r, a). split; [exact Hin|]. apply entry_eqb_true. reflexivity.
Qed.

(* removing a role takes effect immediately: the very next check fails *)
Lemma removal_immediate s r a : table_role r = true -> holds (remove_account s r a) r a = false.
Proof.
  intros Ht. apply not_true_is_false. rewrite (holds_table _ _ _ Ht). cbn [remove_account au_admins].
  rewrite filter_In. intros (_ & Hn). rewrite (proj2 (entry_eqb_true r a (r, a)) eq_refl) in Hn. discriminate Hn.
Qed.

(* ... and does not touch anybody else's roles *)
Lemma removal_frame s r a r' a' :
  table_role r = true -> (r', a') <> (r, a) -> holds (remove_account s r a) r' a' = holds s r' a'.
Proof.
  intros Ht Hne. destruct (table_role r') eqn:Ht'; [|destruct r'; try discriminate Ht'; reflexivity].
  apply eq_iff_eq_true. rewrite !(holds_table _ _ _ Ht'). cbn [remove_account au_admins].
  rewrite filter_In. split; [tauto|]. intros Hin. split; [exact Hin|].
  destruct (role_eqb (fst (r', a')) r && (snd (r', a') =? a)) eqn:E; [|reflexivity].
  apply entry_eqb_true in E. congruence.
Qed.

Lemma addition_immediate s r a : table_role r = true -> holds (add_account s r a) r a = true.
Proof.
  intros Ht. rewrite (holds_table _ _ _ Ht). cbn [add_account au_admins]. apply in_or_app. right. left. reflexivity.
Qed.
