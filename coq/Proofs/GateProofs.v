(* C12: the token-registry permissions in front of the AMM handlers (read off the handler descriptions of ClpSpecs.v) and
   of the IBC transfer; the three registry messages as edits of the registry list. *)
From Coq Require Import ZArith Lia Bool List.
From RecordUpdate Require Import RecordUpdate.
From Sif Require Import Base.Outcome Base.SdkMath Base.Store Base.Bank
  Model.ClpCalc Model.ClpTypes Model.ClpState Model.ClpMsgs Model.Registry Proofs.ClpInv.
Import ListNotations.
Local Open Scope Z_scope.

Definition registered_with (s : clp_state) (d perm : Z) : Prop :=
  exists bits, reg_entry (cs_params s) d = Some bits /\ has_perm bits perm = true.
Definition not_marked (s : clp_state) (d perm : Z) : Prop :=
  forall bits, reg_entry (cs_params s) d = Some bits -> has_perm bits perm = false.

Lemma create_pool_gate s sg a n e s' : create_pool s sg a n e = Ok s' -> registered_with s a PERM_CLP.
Proof. intros H. destruct (create_pool_spec _ _ _ _ _ _ H) as (b2 & _ & Hl & _). exact Hl. Qed.

Lemma removed_gate s sg a s' : removed s sg a s' -> registered_with s a PERM_CLP.
Proof. intros (pl & l0 & wn & we & lft & caller & b2 & _ & (Hl & _) & _). exact Hl. Qed.
Lemma remove_gate s sg a w asym s' : remove_liquidity s sg a w asym = Ok s' -> registered_with s a PERM_CLP.
Proof. intros H. exact (removed_gate _ _ _ _ (remove_liquidity_spec _ _ _ _ _ _ H)). Qed.
Lemma remove_units_gate s sg a u s' : remove_liquidity_units s sg a u = Ok s' -> registered_with s a PERM_CLP.
Proof. intros H. exact (removed_gate _ _ _ _ (remove_liquidity_units_spec _ _ _ _ _ H)). Qed.

Lemma swap_gate s sg sent recv amt mn s' emit :
  swap s sg sent recv amt mn = Ok (s', emit) ->
  registered_with s sent PERM_CLP /\ registered_with s recv PERM_CLP /\
  not_marked s sent PERM_DISABLE_SELL /\ not_marked s recv PERM_DISABLE_BUY.
Proof.
  intros H. destruct (swap_inv _ _ _ _ _ _ _ _ H) as (b1 & b2 & mid & pools1 & _ & _ & _ & sbits & rbits & Hs & Hr & Hclp & Hsell & Hbuy). apply andb_prop in Hclp. destruct Hclp.
  repeat split; try (eexists; eauto; fail); intros bits Hb; congruence.
Qed.

(* AddLiquidity: the external token carries the AMM permission; when the add is asymmetric the implied
   swap direction obeys the sell / buy marks of both tokens, the native token's entry included *)
Lemma add_liquidity_gate s sg a n e s' :
  add_liquidity s sg a n e = Ok s' ->
  registered_with s a PERM_CLP /\ (exists nb, reg_entry (cs_params s) ROWAN = Some nb) /\
  exists p pu lpu st sw,
    get a (cs_pools s) = Some p /\
    calculate_pool_units (p_units p) (p_nb p + p_nl p) (p_eb p + p_el p) n e
       (fee_rate (cs_params s) ROWAN) (fee_rate (cs_params s) a) (cp_pmtp (cs_params s)) = Ok (pu, lpu, st, sw) /\
    match st with
    | NoSwap => True
    | SellNative => not_marked s ROWAN PERM_DISABLE_SELL /\ not_marked s a PERM_DISABLE_BUY
    | BuyNative => not_marked s a PERM_DISABLE_SELL /\ not_marked s ROWAN PERM_DISABLE_BUY
    end.
Proof.
  intros H. destruct (add_liquidity_spec _ _ _ _ _ _ H) as (p & pu & lpu & st & sw & b2 & _ & Hreg & Hp & Hcalc & _).
  destruct Hreg as (nbits & ebits & Hn & He & Hclp & Hside).
  split; [exists ebits; auto|]. split; [exists nbits; exact Hn|]. exists p, pu, lpu, st, sw. split; [exact Hp|]. split; [exact Hcalc|].
  destruct st; [| |exact I]; destruct Hside; split; intros bits Hbits; congruence.
Qed.

Lemma transfer_gate_spec reg d amt :
  transfer_gate reg d amt = true <->
  exists e, reg_lookup d reg = Some e /\ re_alias e = false /\ has_perm (re_bits e) PERM_IBCEXPORT = true /\ 0 < amt.
Proof.
  unfold transfer_gate. destruct (reg_lookup d reg) as [e|]; split.
  - intros H. apply andb_prop in H. destruct H as (H1 & H3). apply andb_prop in H1. destruct H1 as (H1 & H2).
    apply negb_true_iff in H1. apply Z.ltb_lt in H3. eauto.
  - intros (e' & [= <-] & H1 & H2 & H3). rewrite H1, H2. cbn. apply Z.ltb_lt. assumption.
  - discriminate.
  - intros (e' & H & _). discriminate.
Qed.

Section Edits.
Context {E : Type}.
Implicit Types reg : list (Z * E).
Lemma lookup_set_same d e reg : lookup d (set_token d e reg) = Some e.
Proof.
  induction reg as [|[k x] reg IH]; cbn [set_token lookup]; [rewrite Z.eqb_refl; reflexivity|].
  destruct (Z.eqb_spec k d) as [->|Hne]; cbn [lookup]; [rewrite Z.eqb_refl; reflexivity|].
  destruct (Z.eqb_spec k d); [contradiction|exact IH].
Qed.
Lemma lookup_set_other d e reg d' : d' <> d -> lookup d' (set_token d e reg) = lookup d' reg.
Proof.
  intros Hne. induction reg as [|[k x] reg IH]; cbn [set_token lookup].
  - destruct (Z.eqb_spec d d'); [congruence|reflexivity].
  - destruct (Z.eqb_spec k d) as [->|Hk]; cbn [lookup].
    + destruct (Z.eqb_spec d d'); [congruence|reflexivity].
    + destruct (k =? d'); [reflexivity|exact IH].
Qed.
Lemma lookup_remove_same d reg : lookup d (remove_token d reg) = None.
Proof.
  induction reg as [|[k x] reg IH]; cbn [remove_token filter lookup fst]; [reflexivity|].
  destruct (Z.eqb_spec k d) as [->|Hne]; cbn [negb]; [exact IH|]. cbn [lookup]. destruct (Z.eqb_spec k d); [contradiction|exact IH].
Qed.
Lemma lookup_remove_other d reg d' : d' <> d -> lookup d' (remove_token d reg) = lookup d' reg.
Proof.
  intros Hne. induction reg as [|[k x] reg IH]; cbn [remove_token filter lookup fst]; [reflexivity|].
  destruct (Z.eqb_spec k d) as [->|Hk]; cbn [negb lookup].
  - destruct (Z.eqb_spec d d'); [congruence|exact IH].
  - destruct (k =? d'); [reflexivity|exact IH].
Qed.
(* a registration edits in place: the list keeps its length when the denom was listed *)
Lemma set_token_length d e reg : lookup d reg <> None -> length (set_token d e reg) = length reg.
Proof.
  induction reg as [|[k x] reg IH]; cbn [set_token lookup length]; [congruence|].
  destruct (k =? d); cbn [length]; [reflexivity|]. intros H. rewrite IH by exact H. reflexivity.
Qed.
End Edits.

Lemma reg_lookup_is_lookup d reg : reg_lookup d reg = lookup d reg.
Proof. reflexivity. Qed.

(* after MsgDeregister the gate refuses the denom *)
Theorem gate_after_deregister reg d amt : transfer_gate (remove_token d reg) d amt = false.
Proof. unfold transfer_gate. rewrite reg_lookup_is_lookup, lookup_remove_same. reflexivity. Qed.
(* after MsgSetRegistry every lookup and the gate follow the list of the message alone: a denom it does not list is unknown *)
Lemma set_registry_takes_effect (new old : list (Z * reg_entry_x)) :
  (forall d, lookup d (set_registry new old) = lookup d new) /\ (forall d amt, transfer_gate (set_registry new old) d amt = transfer_gate new d amt) /\
  (forall d amt, lookup d new = None -> transfer_gate (set_registry new old) d amt = false).
Proof.
  unfold set_registry. split; [reflexivity|split; [reflexivity|]].
  intros d amt Hn. unfold transfer_gate. rewrite reg_lookup_is_lookup, Hn. reflexivity.
Qed.
(* after MsgRegister the gate follows the new entry *)
Theorem gate_after_register reg d e amt :
  transfer_gate (set_token d e reg) d amt = negb (re_alias e) && has_perm (re_bits e) PERM_IBCEXPORT && (0 <? amt).
Proof. unfold transfer_gate. rewrite reg_lookup_is_lookup, lookup_set_same. reflexivity. Qed.
