(* x/ethbridge and x/oracle: lock and burn (C07), the prophecy of an Ethereum event from claim to credit (C05, C06), and
   that its outcome does not depend on the order in which the claim map is ranged over (C05, C09). *)
From Coq Require Import ZArith Lia Bool List Permutation.
From RecordUpdate Require Import RecordUpdate.
From Sif Require Import Base.Outcome Base.Store Base.Bank Model.Bridge Proofs.BankProofs.
Import ListNotations.
Local Open Scope Z_scope.

Definition fee_receiver (s : bridge_state) : Z :=
  match br_ceth_receiver s with Some r => r | None => BRIDGE_MODULE end.

Definition ind (b : bool) (x : Z) : Z := if b then x else 0.
Lemma ind_add b x y : ind b (x + y) = ind b x + ind b y.
Proof. destruct b; cbn; lia. Qed.

Lemma gas_pos : 0 < LOCK_GAS_COST. Proof. reflexivity. Qed.
Global Opaque CETH PEG BRIDGE_MODULE LOCK_GAS_COST.

Lemma mem_true_iff x l : mem x l = true <-> In x l.
Proof.
  unfold mem. rewrite existsb_exists. split.
  - intros (y & Hy & E). apply Z.eqb_eq in E. subst. exact Hy.
  - intros H. exists x. split; [exact H | apply Z.eqb_refl].
Qed.

(* stated with [ind], so that sums of transfers are linear in the same atoms and lia adds them up *)
Lemma bsend2_effect b from to d x b' : bsend2 b from to d x = Ok b' ->
  (forall a' d', bal b' a' d' = bal b a' d' - ind ((a' =? from) && (d' =? d)) x + ind ((a' =? to) && (d' =? d)) x) /\
  (forall d', sup b' d' = sup b d').
Proof.
  unfold bsend2. destruct (send b from to d x) eqn:E; [|discriminate]. intros [= <-]. apply send_effect in E. tauto.
Qed.

(* the `b1 <- match br_ceth_receiver s with … end` of Bridge.lock_or_burn: the transfers before the burn *)
Definition lock_payment (s : bridge_state) (is_burn : bool) (sender amount symbol ceth : Z) : Outcome bank :=
  match br_ceth_receiver s with
  | Some r => bind (bsend2 (br_bank s) sender r CETH ceth) (fun b0 => bsend2 b0 sender BRIDGE_MODULE symbol amount)
  | None =>
    if symbol =? CETH then
      if is_burn then bsend2 (br_bank s) sender BRIDGE_MODULE CETH (ceth + amount) else Panic
    else bind (bsend2 (br_bank s) sender BRIDGE_MODULE symbol amount) (fun b0 => bsend2 b0 sender BRIDGE_MODULE CETH ceth)
  end.

Lemma lock_payment_effect s is_burn sender amount symbol ceth b1 :
  lock_payment s is_burn sender amount symbol ceth = Ok b1 ->
  (forall a d, bal b1 a d = bal (br_bank s) a d
     - ind ((a =? sender) && (d =? symbol)) amount + ind ((a =? BRIDGE_MODULE) && (d =? symbol)) amount
     - ind ((a =? sender) && (d =? CETH)) ceth + ind ((a =? fee_receiver s) && (d =? CETH)) ceth) /\
  (forall d, sup b1 d = sup (br_bank s) d).
Proof.
  unfold lock_payment, fee_receiver. intros H. destruct (br_ceth_receiver s) as [r|]; [|destruct (Z.eqb_spec symbol CETH) as [->|]].
  - apply bind_ok_inv in H as (b0 & H0 & H). apply bsend2_effect in H0 as (B0 & S0), H as (B & S).
    split; intros; [rewrite B, B0 | rewrite S, S0]; lia.
  - destruct is_burn; [|discriminate]. apply bsend2_effect in H as (B & S).
    split; intros; [rewrite B, !ind_add | rewrite S]; lia.
  - apply bind_ok_inv in H as (b0 & H0 & H). apply bsend2_effect in H0 as (B0 & S0), H as (B & S).
    split; intros; [rewrite B, B0 | rewrite S, S0]; lia.
Qed.

Lemma lock_or_burn_guards s is_burn sender eth amount symbol ceth s' :
  lock_or_burn s is_burn sender eth amount symbol ceth = Ok s' ->
  0 < amount /\ LOCK_GAS_COST <= ceth /\ br_paused s = false /\ mem symbol (br_peggy s) = is_burn /\
  mem sender (br_accounts s) = true /\ mem eth (br_blacklist s) = false /\
  exists b1 b2, lock_payment s is_burn sender amount symbol ceth = Ok b1 /\
    burn b1 BRIDGE_MODULE symbol amount = Some b2 /\ s' = with_bbank s b2.
Proof.
  unfold lock_or_burn. fold (lock_payment s is_burn sender amount symbol ceth). intros H.
  destruct (Z.leb_spec amount 0); [discriminate|]. destruct (Z.ltb_spec ceth LOCK_GAS_COST); [discriminate|]. cbn [orb] in H.
  destruct (br_paused s); [discriminate|].
  destruct (Bool.eqb is_burn (negb (mem symbol (br_peggy s)))) eqn:Hpg; [discriminate|].
  destruct (mem sender (br_accounts s)); cbn [negb] in H; [|discriminate].
  destruct (mem eth (br_blacklist s)); [discriminate|].
  apply bind_ok_inv in H as (b1 & Hpay & H). destruct (burn b1 BRIDGE_MODULE symbol amount) as [b2|] eqn:Hb; [|discriminate].
  injection H as <-. repeat split; auto.
  - destruct is_burn, (mem symbol (br_peggy s)); cbn in Hpg; congruence.
  - exists b1, b2. auto.
Qed.

(* what reaches the module account is burned there *)
Lemma lock_or_burn_bank s is_burn sender eth amount symbol ceth s' :
  lock_or_burn s is_burn sender eth amount symbol ceth = Ok s' ->
  exists b', s' = with_bbank s b' /\
    (forall a d, bal b' a d = bal (br_bank s) a d
       - ind ((a =? sender) && (d =? symbol)) amount
       - ind ((a =? sender) && (d =? CETH)) ceth
       + ind ((a =? fee_receiver s) && (d =? CETH)) ceth) /\
    (forall d, sup b' d = sup (br_bank s) d - ind (d =? symbol) amount).
Proof.
  intros H. apply lock_or_burn_guards in H as (Hamt & _ & _ & _ & _ & _ & b1 & b2 & Hp & Hb & ->).
  apply lock_payment_effect in Hp as (B1 & S1). apply burn_effect in Hb as (B2 & S2).
  rewrite Z.max_r in B2, S2 by lia. exists b2. split; [reflexivity|].
  split; intros; [rewrite B2, B1 | rewrite S2, S1]; unfold ind; lia.
Qed.

Definition weight (s : bridge_state) (v : Z) : Z :=
  match bonded_power s v with Some p => if mem v (br_whitelist s) then p else 0 | None => 0 end.
Fixpoint zsum (l : list Z) : Z := match l with [] => 0 | x :: r => x + zsum r end.
Definition wsum (s : bridge_state) (l : list Z) : Z := zsum (map (weight s) l).

Lemma claim_power_wsum s vals : claim_power s vals = wsum s vals.
Proof.
  unfold claim_power, wsum.
  assert (G : forall acc, fold_left (fun acc v => match bonded_power s v with
              | Some p => if mem v (br_whitelist s) then acc + p else acc | None => acc end) vals acc = acc + zsum (map (weight s) vals)).
  { induction vals as [|v r IH]; intros acc; cbn [fold_left map zsum]; [lia|]. rewrite IH. unfold weight.
    destruct (bonded_power s v); [destruct (mem v _)|]; lia. }
  rewrite G. lia.
Qed.

Definition powers_nonneg (s : bridge_state) : Prop := forall v p, bonded_power s v = Some p -> 0 <= p.

Lemma weight_nonneg s v : powers_nonneg s -> 0 <= weight s v.
Proof. intros H. unfold weight. destruct (bonded_power s v) eqn:E; [|lia]. specialize (H v _ E). destruct (mem v _); lia. Qed.
Lemma claim_power_nonneg s vals : powers_nonneg s -> 0 <= claim_power s vals.
Proof.
  intros Hp. rewrite claim_power_wsum. unfold wsum.
  induction vals as [|v r IH]; cbn [map zsum]; [lia|]. pose proof (weight_nonneg s v Hp). lia.
Qed.

Definition claims_total (s : bridge_state) (claims : list (Z * list Z)) : Z :=
  fold_right (fun c acc => claim_power s (snd c) + acc) 0 claims.

Lemma claims_total_perm s l1 l2 : Permutation l1 l2 -> claims_total s l1 = claims_total s l2.
Proof. unfold claims_total. induction 1; cbn [fold_right]; lia. Qed.
Lemma claims_total_nonneg s l : powers_nonneg s -> 0 <= claims_total s l.
Proof.
  intros Hp. unfold claims_total. induction l as [|[c v] r IH]; cbn [fold_right snd]; [lia|].
  pose proof (claim_power_nonneg s v Hp). lia.
Qed.
Lemma claims_total_in s l c v : powers_nonneg s -> In (c, v) l -> claim_power s v <= claims_total s l.
Proof.
  intros Hp Hin. destruct (in_split _ _ Hin) as (l1 & l2 & ->).
  rewrite <- (claims_total_perm s _ _ (Permutation_middle l1 l2 (c, v))).
  pose proof (claims_total_nonneg s (l1 ++ l2) Hp). unfold claims_total in *. cbn [fold_right snd]. lia.
Qed.
Lemma claims_total_two s l c1 v1 c2 v2 :
  powers_nonneg s -> In (c1, v1) l -> In (c2, v2) l -> c1 <> c2 ->
  claim_power s v1 + claim_power s v2 <= claims_total s l.
Proof.
  intros Hp H1 H2 Hne. destruct (in_split _ _ H1) as (l1 & l2 & ->).
  assert (H2' : In (c2, v2) (l1 ++ l2)).
  { apply in_app_or in H2. apply in_or_app. destruct H2 as [|[[= -> ->]|]]; [left | contradiction | right]; assumption. }
  rewrite <- (claims_total_perm s _ _ (Permutation_middle l1 l2 (c1, v1))).
  pose proof (claims_total_in s _ _ _ Hp H2'). unfold claims_total in *. cbn [fold_right snd]. lia.
Qed.

Lemma highest_loop_spec s claims : forall best0 bestp0 tot0 best bestp tot,
  highest_loop s claims best0 bestp0 tot0 = (best, bestp, tot) ->
  tot = tot0 + claims_total s claims /\ bestp0 <= bestp /\
  Forall (fun c => claim_power s (snd c) <= bestp) claims /\
  ((bestp = bestp0 /\ best = best0) \/ (bestp0 < bestp /\ exists vals, In (best, vals) claims /\ claim_power s vals = bestp)).
Proof.
  induction claims as [|[c vals] rest IH]; intros best0 bestp0 tot0 best bestp tot H; cbn [highest_loop] in H.
  - injection H as <- <- <-. cbn. repeat split; try lia; try constructor; try (left; auto).
  - cbn [claims_total fold_right snd]. fold (claims_total s rest).
    destruct (Z.ltb_spec bestp0 (claim_power s vals)) as [Hlt|Hge];
      apply IH in H; destruct H as (H1 & H2 & H3 & H4); repeat split; try lia; try (constructor; [cbn [snd]; lia|assumption]).
    + right. destruct H4 as [(E1 & E2)|(E1 & v' & Hin & Hp)].
      * subst. split; [lia|]. exists vals. split; [left; reflexivity|reflexivity].
      * split; [lia|]. exists v'. split; [right; assumption|assumption].
    + destruct H4 as [(E1 & E2)|(E1 & v' & Hin & Hp)]; [left; auto|right].
      split; [assumption|]. exists v'. split; [right; assumption|assumption].
Qed.

(* no claim at all cannot reach the threshold *)
Lemma ratio_ge_neg q : 0 <= q -> ratio_ge (-1) q = false.
Proof. intros Hq. unfold ratio_ge. destruct (Z.eqb_spec q 0); [reflexivity | apply Z.leb_gt; lia]. Qed.

(* the same winner if it reaches the threshold: two different claims of that power would together exceed the total *)
Lemma highest_perm s l1 l2 b1 p1 t1 b2 p2 t2 :
  Permutation l1 l2 -> powers_nonneg s -> claims_total s l1 <= total_power s ->
  highest_loop s l1 (-1) (-1) 0 = (b1, p1, t1) -> highest_loop s l2 (-1) (-1) 0 = (b2, p2, t2) ->
  p1 = p2 /\ t1 = t2 /\ (ratio_ge p1 (total_power s) = true -> b1 = b2).
Proof.
  intros Hperm Hp Hle H1 H2. apply highest_loop_spec in H1 as (T1 & _ & F1 & C1), H2 as (T2 & _ & F2 & C2).
  rewrite Forall_forall in F1, F2. pose proof (claims_total_nonneg s l1 Hp) as H0.
  assert (Hpeq : p1 = p2).
  { assert (p1 <= p2).
    { destruct C1 as [(E & _)|(_ & v & Hin & Hv)]; [destruct C2 as [[]|[]]; lia|].
      specialize (F2 (b1, v) (Permutation_in _ Hperm Hin)). cbn [snd] in F2. lia. }
    assert (p2 <= p1); [|lia].
    destruct C2 as [(E & _)|(_ & v & Hin & Hv)]; [destruct C1 as [[]|[]]; lia|].
    specialize (F1 (b2, v) (Permutation_in _ (Permutation_sym Hperm) Hin)). cbn [snd] in F1. lia. }
  subst p2. split; [reflexivity|]. split; [rewrite T1, T2, (claims_total_perm s _ _ Hperm); reflexivity|].
  intros Hr. destruct C1 as [(-> & _)|(Hgt & v1 & Hin1 & Hv1)]; [rewrite ratio_ge_neg in Hr by lia; discriminate|].
  destruct C2 as [(E & _)|(_ & v2 & Hin2 & Hv2)]; [lia|].
  destruct (Z.eq_dec b1 b2) as [|Hne]; [assumption|]. exfalso.
  pose proof (claims_total_two s l1 b1 v1 b2 v2 Hp Hin1 (Permutation_in _ (Permutation_sym Hperm) Hin2) Hne) as Htwo.
  rewrite Hv1, Hv2 in Htwo. unfold ratio_ge in Hr.
  destruct (Z.eqb_spec (total_power s) 0); [apply Z.ltb_lt in Hr | apply Z.leb_le in Hr]; lia.
Qed.

Lemma completion_perm s l1 l2 pr :
  Permutation l1 l2 -> powers_nonneg s -> claims_total s l1 <= total_power s ->
  process_completion s l1 pr = process_completion s l2 pr.
Proof.
  intros Hperm Hp Hle. unfold process_completion.
  destruct (highest_loop s l1 (-1) (-1) 0) as [[b1 p1] t1] eqn:H1.
  destruct (highest_loop s l2 (-1) (-1) 0) as [[b2 p2] t2] eqn:H2.
  destruct (highest_perm _ _ _ _ _ _ _ _ _ Hperm Hp Hle H1 H2) as (<- & <- & Hb).
  destruct (ratio_ge p1 (total_power s)); [rewrite Hb by reflexivity|]; reflexivity.
Qed.

(* C05 / C09: the outcome does not depend on the order in which the claim map is ranged over *)
Lemma completion_order_independent s l1 l2 pr :
  Permutation l1 l2 -> powers_nonneg s -> claims_total s l1 <= total_power s ->
  pr_status (process_completion s l1 pr) = pr_status (process_completion s l2 pr) /\
  (pr_status (process_completion s l1 pr) = 1 -> pr_status pr <> 1 ->
   pr_final (process_completion s l1 pr) = pr_final (process_completion s l2 pr)).
Proof. intros Hperm Hp Hle. rewrite (completion_perm s l1 l2 pr Hperm Hp Hle). auto. Qed.

Definition old_prophecy (s : bridge_state) (pid : Z) : prophecy :=
  match get pid (br_prophecies s) with Some p => p | None => new_prophecy end.

(* [pr1] of Bridge.process_claim, and the four tests before it as one boolean *)
Definition with_claim (pr : prophecy) (cid val : Z) : prophecy :=
  pr <| pr_claims := add_claim cid val (pr_claims pr) |> <| pr_vclaims := pr_vclaims pr ++ [(val, cid)] |>.
Definition accepts (s : bridge_state) (pid val : Z) : bool :=
  mem val (br_whitelist s) && is_active s val && (pr_status (old_prophecy s pid) =? 0)
  && match lookup val (pr_vclaims (old_prophecy s pid)) with Some _ => false | None => true end.

Lemma process_claim_eq s perm pid val cid :
  process_claim s perm pid val cid =
  if accepts s pid val then
    let pr1 := with_claim (old_prophecy s pid) cid val in
    let pr2 := process_completion s (perm (pr_claims pr1)) pr1 in
    Ok (s <| br_prophecies := set pid pr2 (br_prophecies s) |>, pr2)
  else bfail.
Proof.
  unfold process_claim, accepts. fold (old_prophecy s pid).
  destruct (mem val (br_whitelist s)), (is_active s val), (pr_status (old_prophecy s pid) =? 0),
    (lookup val (pr_vclaims (old_prophecy s pid))); reflexivity.
Qed.

Lemma process_claim_inv s perm pid val cid s' pr :
  process_claim s perm pid val cid = Ok (s', pr) ->
  mem val (br_whitelist s) = true /\ is_active s val = true /\
  pr_status (old_prophecy s pid) = 0 /\ lookup val (pr_vclaims (old_prophecy s pid)) = None /\
  s' = s <| br_prophecies := set pid pr (br_prophecies s) |> /\
  let pr1 := with_claim (old_prophecy s pid) cid val in
  pr = process_completion s (perm (pr_claims pr1)) pr1.
Proof.
  rewrite process_claim_eq. unfold accepts.
  destruct (mem val (br_whitelist s)), (is_active s val), (Z.eqb_spec (pr_status (old_prophecy s pid)) 0),
    (lookup val (pr_vclaims (old_prophecy s pid))); try discriminate.
  intros [= <- <-]. auto 6.
Qed.

Lemma success_needs_threshold s perm pid val cid s' pr :
  0 <= total_power s ->
  process_claim s perm pid val cid = Ok (s', pr) -> pr_status pr = 1 ->
  exists vals, In (pr_final pr, vals) (perm (add_claim cid val (pr_claims (old_prophecy s pid)))) /\
               ratio_ge (claim_power s vals) (total_power s) = true.
Proof.
  intros Htot H Hs. apply process_claim_inv in H as (_ & _ & Hst & _ & _ & ->).
  change (pr_claims (with_claim (old_prophecy s pid) cid val)) with (add_claim cid val (pr_claims (old_prophecy s pid))) in *.
  set (order := perm (add_claim cid val (pr_claims (old_prophecy s pid)))) in *.
  unfold process_completion in *.
  destruct (highest_loop s order (-1) (-1) 0) as [[best bestp] claimed] eqn:Hh.
  apply highest_loop_spec in Hh as (_ & _ & _ & H4).
  destruct (ratio_ge bestp (total_power s)) eqn:Hr.
  - destruct H4 as [(-> & _)|(_ & vals & Hin & Hp)]; [rewrite ratio_ge_neg in Hr by exact Htot; discriminate|].
    exists vals. split; [exact Hin | rewrite Hp; exact Hr].
  - destruct (ratio_lt _ _); cbn in Hs; congruence.
Qed.

Definition credit_denom (ct : content) : Z := if ct_type ct =? 1 then ct_symbol ct + PEG else ct_symbol ct.

(* the tail shared by both branches of Bridge.process_successful_claim *)
Lemma mint_send s1 ct d s' :
  0 <= ct_amount ct ->
  (if mem (ct_receiver ct) (br_blocked s1) then Panic else
   match send (mint (br_bank s1) BRIDGE_MODULE d (ct_amount ct)) BRIDGE_MODULE (ct_receiver ct) d (ct_amount ct) with
   | Some b2 => Ok (with_bbank s1 b2) | None => Panic end) = Ok s' ->
  mem (ct_receiver ct) (br_blocked s1) = false /\
  exists b, s' = with_bbank s1 b /\
    (forall a dd, bal b a dd = bal (br_bank s1) a dd + ind ((a =? ct_receiver ct) && (dd =? d)) (ct_amount ct)) /\
    (forall dd, sup b dd = sup (br_bank s1) dd + ind (dd =? d) (ct_amount ct)).
Proof.
  intros Hamt H. destruct (mem (ct_receiver ct) (br_blocked s1)); [discriminate|].
  destruct (send _ _ _ _ _) as [b2|] eqn:Hs; [|discriminate]. injection H as <-.
  apply send_effect in Hs as (_ & Hsb & Hss).
  destruct (mint_effect (br_bank s1) BRIDGE_MODULE d (ct_amount ct)) as (Hmb & Hms). rewrite Z.max_r in Hmb, Hms by exact Hamt.
  split; [reflexivity|]. exists b2. split; [reflexivity|].
  split; intros; [rewrite Hsb, Hmb | rewrite Hss, Hms]; unfold ind; lia.
Qed.

Lemma claim_credit s cid s' :
  process_successful_claim s cid = Ok s' ->
  exists ct b pg, get cid (br_contents s) = Some ct /\ 0 <= ct_amount ct /\ (ct_type ct = 1 \/ ct_type ct = 2) /\
    mem (ct_receiver ct) (br_blocked s) = false /\
    s' = s <| br_peggy := pg |> <| br_bank := b |> /\
    (forall a d, bal b a d = bal (br_bank s) a d + ind ((a =? ct_receiver ct) && (d =? credit_denom ct)) (ct_amount ct)) /\
    (forall d, sup b d = sup (br_bank s) d + ind (d =? credit_denom ct) (ct_amount ct)) /\
    (ct_type ct = 1 -> mem (credit_denom ct) pg = true).
Proof.
  unfold process_successful_claim, credit_denom. destruct (get cid (br_contents s)) as [ct|]; [|discriminate].
  destruct (Z.ltb_spec (ct_amount ct) 0) as [|Hamt]; [discriminate|]. intros H. exists ct.
  destruct (Z.eqb_spec (ct_type ct) 1) as [E1|E1]; [|destruct (Z.eqb_spec (ct_type ct) 2) as [E2|E2]; [|discriminate]].
  - cbv zeta in H. apply (mint_send _ ct _ _ Hamt) in H as (Hbl & b & -> & Hb & Hs).
    destruct (mem (ct_symbol ct + PEG) (br_peggy s)) eqn:Em.
    + exists b, (br_peggy s). destruct s. auto 10.
    + exists b, (br_peggy s ++ [ct_symbol ct + PEG]). repeat split; auto. intros _. apply mem_true_iff, in_or_app. right. left. reflexivity.
  - apply (mint_send _ ct _ _ Hamt) in H as (Hbl & b & -> & Hb & Hs).
    exists b, (br_peggy s). destruct s. repeat split; auto.
Qed.

Lemma create_claim_inv s perm pid val cid ct s' :
  create_claim s perm pid val cid ct = Ok s' ->
  let s0 := s <| br_contents := set cid ct (br_contents s) |> in
  exists pr, let s1 := s0 <| br_prophecies := set pid pr (br_prophecies s) |> in
    process_claim s0 perm pid val cid = Ok (s1, pr) /\
    if pr_status pr =? 1 then process_successful_claim s1 (pr_final pr) = Ok s' else s' = s1.
Proof.
  unfold create_claim. intros H. apply bind_ok_inv in H as ([s1 pr] & Hp & H). exists pr.
  pose proof (process_claim_inv _ _ _ _ _ _ _ Hp) as (_ & _ & _ & _ & -> & _). split; [exact Hp|].
  destruct (pr_status pr =? 1); [exact H | injection H as <-; reflexivity].
Qed.

Lemma create_claim_effect s perm pid val cid ct s' :
  create_claim s perm pid val cid ct = Ok s' ->
  pr_status (old_prophecy s pid) = 0 /\
  exists pr, get pid (br_prophecies s') = Some pr /\
    (forall pid', pid' <> pid -> get pid' (br_prophecies s') = get pid' (br_prophecies s)) /\
    (pr_status pr <> 1 -> br_bank s' = br_bank s /\ br_peggy s' = br_peggy s) /\
    (pr_status pr = 1 ->
       exists ctf, get (pr_final pr) (set cid ct (br_contents s)) = Some ctf /\ 0 <= ct_amount ctf /\
         (ct_type ctf = 1 \/ ct_type ctf = 2) /\ mem (ct_receiver ctf) (br_blocked s) = false /\
         (forall a d, bal (br_bank s') a d = bal (br_bank s) a d + ind ((a =? ct_receiver ctf) && (d =? credit_denom ctf)) (ct_amount ctf)) /\
         (forall d, sup (br_bank s') d = sup (br_bank s) d + ind (d =? credit_denom ctf) (ct_amount ctf)) /\
         (ct_type ctf = 1 -> mem (credit_denom ctf) (br_peggy s') = true)).
Proof.
  intros H. apply create_claim_inv in H as (pr & Hp & H). cbv zeta in *.
  apply process_claim_inv in Hp as (_ & _ & Hst & _). split; [exact Hst|]. exists pr.
  destruct (Z.eqb_spec (pr_status pr) 1) as [E|E].
  - apply claim_credit in H as (ctf & b & pg & Hg & Ha & Ht & Hbl & -> & Hb & Hsu & Hpg).
    split; [apply get_set_same|]. split; [intros pid' Hne; apply get_set_other; exact Hne|].
    split; [contradiction|]. intros _. exists ctf. auto 10.
  - subst s'. split; [apply get_set_same|]. split; [intros pid' Hne; apply get_set_other; exact Hne|].
    split; [intros _; split; reflexivity | contradiction].
Qed.

Lemma finalised_rejects s perm pid val cid ct :
  pr_status (old_prophecy s pid) <> 0 -> exists e, create_claim s perm pid val cid ct = e /\ is_ok e = false.
Proof.
  intros Hst. eexists. split; [reflexivity|].
  destruct (create_claim s perm pid val cid ct) eqn:E; try reflexivity.
  apply create_claim_effect in E as (E0 & _). contradiction.
Qed.

Record claim_msg := mkClaimMsg { cm_pid : Z; cm_val : Z; cm_cid : Z; cm_content : content }.

Definition status_of (s : bridge_state) (pid : Z) : Z := pr_status (old_prophecy s pid).

(* new state, and the event credited by this transaction, if any *)
Definition deliver_claim (perm : list (Z * list Z) -> list (Z * list Z)) (s : bridge_state) (m : claim_msg)
  : bridge_state * option Z :=
  match create_claim s perm (cm_pid m) (cm_val m) (cm_cid m) (cm_content m) with
  | Ok s' => (s', if (status_of s' (cm_pid m) =? 1) then Some (cm_pid m) else None)
  | _ => (s, None)
  end.

Fixpoint run_claims (perm : list (Z * list Z) -> list (Z * list Z)) (s : bridge_state) (ms : list claim_msg)
  : bridge_state * list Z :=
  match ms with
  | [] => (s, [])
  | m :: rest =>
    let '(s1, c) := deliver_claim perm s m in
    let '(s2, cs) := run_claims perm s1 rest in
    (s2, match c with Some p => p :: cs | None => cs end)
  end.

Lemma status_stable perm s m pid :
  status_of s pid <> 0 -> status_of (fst (deliver_claim perm s m)) pid = status_of s pid.
Proof.
  intros Hst. unfold deliver_claim.
  destruct (create_claim s perm (cm_pid m) (cm_val m) (cm_cid m) (cm_content m)) as [s'| |] eqn:E; try reflexivity.
  cbn [fst]. apply create_claim_effect in E as (E0 & pr & Hg & Hother & _).
  destruct (Z.eq_dec pid (cm_pid m)) as [->|Hne]; [contradiction|].
  unfold status_of, old_prophecy. rewrite (Hother _ Hne). reflexivity.
Qed.

Lemma deliver_claim_credit perm s m s1 p :
  deliver_claim perm s m = (s1, Some p) -> status_of s p = 0 /\ status_of s1 p = 1.
Proof.
  unfold deliver_claim. destruct (create_claim s perm _ _ _ _) as [s'| |] eqn:E; try discriminate.
  destruct (Z.eqb_spec (status_of s' (cm_pid m)) 1) as [E1|]; [|discriminate]. intros [= <- <-].
  apply create_claim_effect in E as (E0 & _). auto.
Qed.

Lemma run_claims_spec perm ms : forall s,
  NoDup (snd (run_claims perm s ms)) /\ forall pid, In pid (snd (run_claims perm s ms)) -> status_of s pid = 0.
Proof.
  induction ms as [|m rest IH]; intros s; cbn [run_claims]; [split; [constructor | intros pid []]|].
  destruct (deliver_claim perm s m) as [s1 c] eqn:Ed. destruct (IH s1) as [Hnd Hcr].
  destruct (run_claims perm s1 rest) as [s2 cs]. cbn [snd] in *.
  assert (Hrest : forall pid, In pid cs -> status_of s pid = 0).
  { intros pid Hc. destruct (Z.eq_dec (status_of s pid) 0) as [|Hne]; [assumption|].
    pose proof (status_stable perm s m pid Hne) as Hs. rewrite Ed in Hs. cbn [fst] in Hs. rewrite <- Hs. exact (Hcr pid Hc). }
  destruct c as [p|]; [|split; assumption]. destruct (deliver_claim_credit _ _ _ _ _ Ed) as [H0 H1]. split.
  - constructor; [|exact Hnd]. intros Hin. specialize (Hcr p Hin). lia.
  - intros pid [<-|Hc]; [exact H0 | exact (Hrest pid Hc)].
Qed.
Theorem credited_at_most_once perm ms : forall s, NoDup (snd (run_claims perm s ms)).
Proof. intros s. apply run_claims_spec. Qed.

Lemma set_blacklist_effect s is_admin sender addrs s' :
  set_blacklist s is_admin sender addrs = Ok s' ->
  is_admin = true /\ br_blacklist s' = addrs /\ br_bank s' = br_bank s /\ br_prophecies s' = br_prophecies s /\
  br_paused s' = br_paused s /\ br_peggy s' = br_peggy s /\ br_accounts s' = br_accounts s.
Proof.
  unfold set_blacklist. destruct (mem sender (br_accounts s)); cbn [negb]; [|discriminate].
  destruct is_admin; cbn [negb]; [|discriminate]. intros [= <-]. repeat split; reflexivity.
Qed.

Lemma set_blacklist_refused s sender addrs : exists e, set_blacklist s false sender addrs = e /\ is_ok e = false.
Proof. eexists. split; [reflexivity|]. unfold set_blacklist. destruct (mem sender (br_accounts s)); reflexivity. Qed.

Lemma blacklist_takes_effect s sender addrs s' :
  set_blacklist s true sender addrs = Ok s' ->
  (forall a is_burn sd amount symbol ceth, In a addrs -> is_ok (lock_or_burn s' is_burn sd a amount symbol ceth) = false) /\
  (forall a, ~ In a addrs -> mem a (br_blacklist s') = false).
Proof.
  intros H. apply set_blacklist_effect in H as (_ & Hb & _). rewrite Hb. split.
  - intros a is_burn sd amount symbol ceth Hin. destruct (lock_or_burn s' _ _ _ _ _ _) eqn:E; try reflexivity.
    apply lock_or_burn_guards in E as (_ & _ & _ & _ & _ & Hbl & _). rewrite Hb in Hbl.
    apply mem_true_iff in Hin. congruence.
  - intros a Hn. destruct (mem a addrs) eqn:E; [|reflexivity]. apply mem_true_iff in E. contradiction.
Qed.
