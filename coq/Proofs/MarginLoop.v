(* C13: the per-position theorem of the begin blocker lifted to the whole pass over a pool and to all pools of a block,
   with a premise on the state at the start only. First what every keeper function respects at any outcome, proved once
   along the monad's combinators; then the loop over a pool; then all pools of a block. *)
From Coq Require Import ZArith Lia Bool List.
From RecordUpdate Require Import RecordUpdate.
From Sif Require Import Base.Outcome Base.SdkMath Base.Store Base.Bank Model.Margin Proofs.BankProofs Proofs.ClpInv
  Proofs.MarginResp Proofs.MarginProofs.
Import ListNotations.
Local Open Scope Z_scope.
Local Open Scope pm_scope.

Definition mtps_wf (s : mstate) : Prop := wf (ms_mtps s) /\ Forall (fun kv : Z * store mtp => wf (snd kv)) (ms_mtps s).

(* the frame of a computation on position (address, id): address, asset, parameters and height stay; if the id is set and the
   position store is in key order, the id stays, the order stays and every other stored position is untouched *)
Definition FR (c c' : mctx) : Prop :=
  c_addr c' = c_addr c /\ c_asset c' = c_asset c /\
  ms_params (c_s c') = ms_params (c_s c) /\ ms_height (c_s c') = ms_height (c_s c) /\
  (c_id c <> 0 -> mtps_wf (c_s c) ->
     c_id c' = c_id c /\ mtps_wf (c_s c') /\
     forall addr' id', (addr' <> c_addr c \/ id' <> c_id c) -> find_mtp (c_s c') addr' id' = find_mtp (c_s c) addr' id').

Lemma FR_refl c : FR c c.
Proof. unfold FR. do 4 (split; [reflexivity|]). intros _ Hw. split; [reflexivity|]. split; [exact Hw|reflexivity]. Qed.
Lemma FR_trans c1 c2 c3 : FR c1 c2 -> FR c2 c3 -> FR c1 c3.
Proof.
  intros (A1 & A2 & A3 & A4 & A5) (B1 & B2 & B3 & B4 & B5). unfold FR.
  split; [congruence|]. split; [congruence|]. split; [congruence|]. split; [congruence|].
  intros Hid Hwf. destruct (A5 Hid Hwf) as (E1 & W1 & F1).
  destruct (B5 ltac:(rewrite E1; exact Hid) W1) as (E2 & W2 & F2).
  split; [congruence|]. split; [exact W2|]. intros addr' id' Hk. rewrite F2 by (rewrite A1, E1; exact Hk). apply F1. exact Hk.
Qed.

Definition frames {A} (f : PM A) : Prop := forall c c' o, f c = (c', o) -> FR c c'.

(* the pool store changes only by writes under the context's asset *)
Definition PF (c c' : mctx) : Prop :=
  c_asset c' = c_asset c /\
  (ms_pools (c_s c') = ms_pools (c_s c) \/ exists p', ms_pools (c_s c') = set (c_asset c) p' (ms_pools (c_s c))).
Lemma PF_refl c : PF c c. Proof. split; [reflexivity|left; reflexivity]. Qed.
Lemma PF_trans c1 c2 c3 : PF c1 c2 -> PF c2 c3 -> PF c1 c3.
Proof.
  intros (A1 & A2) (B1 & B2). split; [congruence|]. rewrite A1 in B2.
  destruct A2 as [A2|(p1 & A2)]; destruct B2 as [B2|(p2 & B2)]; rewrite B2, A2; [left; reflexivity|right; eauto|right; eauto|right; exists p2; apply set_set_same].
Qed.
Definition pframes {A} (f : PM A) : Prop := forall c c' o, f c = (c', o) -> PF c c'.

(* balances and custody amounts stay non-negative *)
Definition stored_nonneg (s : mstate) : Prop := forall addr id m, find_mtp s addr id = Some m -> 0 <= m_cust_amt m.
Definition CN (c : mctx) : Prop :=
  0 <= m_cust_amt (c_mtp c) /\ 0 <= q_nb (c_pool c) /\ 0 <= q_eb (c_pool c) /\ stored_nonneg (c_s c).
Definition keepsCN {A} (f : PM A) : Prop := forall c c' o, f c = (c', o) -> CN c -> CN c'.
Lemma kcn_if {A} (b : bool) (f g : PM A) : keepsCN f -> keepsCN g -> keepsCN (if b then f else g).
Proof. destruct b; auto. Qed.
(* destroying needs the key order of the position store *)
Definition Good (c : mctx) : Prop := c_id c <> 0 /\ mtps_wf (c_s c) /\ CN c.
Definition keepsG {A} (f : PM A) : Prop := forall c c' o, f c = (c', o) -> Good c -> Good c'.

(* the stored positions keep their shape (non-zero id, owner other than the module account, exactly one native asset) *)
Definition shape (m : mtp) : Prop := on_pool (pool_asset_of m) m.
Definition stored_shape (s : mstate) : Prop :=
  forall addr id m, find_mtp s addr id = Some m -> id <> 0 /\ addr <> CLP_MODULE /\ shape m.
Definition SH (c : mctx) : Prop :=
  c_addr c <> CLP_MODULE /\ c_id c <> 0 /\ shape (c_mtp c) /\ mtps_wf (c_s c) /\ stored_shape (c_s c).
Definition keepsSH {A} (f : PM A) : Prop := forall c c' o, f c = (c', o) -> SH c -> SH c'.

Definition Step (c c' : mctx) : Prop := FR c c' /\ PF c c' /\ (Good c -> Good c') /\ (SH c -> SH c').
Lemma Step_refl c : Step c c.
Proof. split; [apply FR_refl|]. split; [apply PF_refl|]. split; intros H; exact H. Qed.
Lemma Step_trans c1 c2 c3 : Step c1 c2 -> Step c2 c3 -> Step c1 c3.
Proof.
  intros (A1 & A2 & A3 & A4) (B1 & B2 & B3 & B4).
  split; [eapply FR_trans; eassumption|]. split; [eapply PF_trans; eassumption|]. split; intros H; auto.
Qed.
(* at any outcome, a panic included *)
Definition steps {A} (f : PM A) : Prop := resp Step f.

Lemma steps_frames {A} (f : PM A) : steps f -> frames f.
Proof. intros H c c' o E. apply (H _ _ _ E). Qed.
Lemma steps_pf {A} (f : PM A) : steps f -> pframes f.
Proof. intros H c c' o E. apply (H _ _ _ E). Qed.
Lemma steps_kg {A} (f : PM A) : steps f -> keepsG f.
Proof. intros H c c' o E. apply (H _ _ _ E). Qed.
Lemma steps_sh {A} (f : PM A) : steps f -> keepsSH f.
Proof. intros H c c' o E. apply (H _ _ _ E). Qed.

Lemma mtps_wf_set s s' addr (inner : store mtp) :
  mtps_wf s -> wf inner -> ms_mtps s' = set addr inner (ms_mtps s) -> mtps_wf s'.
Proof. intros [Ho Hw] Hi E. unfold mtps_wf. rewrite E. split; [apply wf_set; exact Ho|apply Forall_set; assumption]. Qed.
Lemma mtps_of_wf s addr : mtps_wf s -> wf (mtps_of s addr).
Proof.
  intros [_ Hw]. unfold mtps_of. destruct (get addr (ms_mtps s)) as [inner|] eqn:E; [|apply wf_nil].
  exact (proj1 (Forall_forall _ _) Hw _ (get_in _ _ _ E)).
Qed.
Lemma find_del s s' addr id addr' id' :
  mtps_wf s -> ms_mtps s' = set addr (del id (mtps_of s addr)) (ms_mtps s) ->
  find_mtp s' addr' id' = if (addr' =? addr) && (id' =? id) then None else find_mtp s addr' id'.
Proof.
  intros Hw E. unfold find_mtp, mtps_of at 1. rewrite E. destruct (Z.eqb_spec addr' addr) as [->|Hne]; cbn [andb].
  - rewrite get_set_same. pose proof (mtps_of_wf s addr Hw) as Hi.
    destruct (Z.eqb_spec id' id) as [->|Hni]; [apply wf_get_del_same|apply wf_get_del_other]; assumption.
  - rewrite get_set_other by exact Hne. reflexivity.
Qed.

Definition stored (P : Z -> Z -> mtp -> Prop) (s : mstate) : Prop := forall addr id m, find_mtp s addr id = Some m -> P addr id m.
Lemma stored_same P s s' : ms_mtps s' = ms_mtps s -> stored P s -> stored P s'.
Proof. intros E H addr id m. rewrite (find_core _ _ _ _ E). apply H. Qed.
Lemma stored_put P s addr id m : stored P s -> P addr id m -> stored P (put_mtp s addr id m).
Proof.
  intros Hs Hm a i m'. rewrite find_put.
  destruct (Z.eqb_spec a addr) as [->|]; destruct (Z.eqb_spec i id) as [->|]; cbn [andb]; [intros [= <-]; exact Hm|apply Hs..].
Qed.
Lemma stored_del P s s' addr id :
  mtps_wf s -> ms_mtps s' = set addr (del id (mtps_of s addr)) (ms_mtps s) -> stored P s -> stored P s'.
Proof. intros Hw E Hs a i m'. rewrite (find_del _ _ _ _ _ _ Hw E). destruct (_ && _); [discriminate|apply Hs]. Qed.

Lemma Step_same c c' :
  c_addr c' = c_addr c -> c_asset c' = c_asset c -> c_id c' = c_id c ->
  ms_params (c_s c') = ms_params (c_s c) -> ms_height (c_s c') = ms_height (c_s c) -> ms_mtps (c_s c') = ms_mtps (c_s c) ->
  (ms_pools (c_s c') = ms_pools (c_s c) \/ exists p', ms_pools (c_s c') = set (c_asset c) p' (ms_pools (c_s c))) ->
  (0 <= m_cust_amt (c_mtp c) -> 0 <= m_cust_amt (c_mtp c')) ->
  (0 <= q_nb (c_pool c) -> 0 <= q_eb (c_pool c) -> 0 <= q_nb (c_pool c') /\ 0 <= q_eb (c_pool c')) ->
  (shape (c_mtp c) -> shape (c_mtp c')) -> Step c c'.
Proof.
  intros E1 E2 E3 E4 E5 E6 Hp Hm Hq Hs.
  assert (Hw : mtps_wf (c_s c) -> mtps_wf (c_s c')) by (unfold mtps_wf; rewrite E6; auto).
  split; [|split; [split; assumption|split]].
  - unfold FR. do 4 (split; [assumption|]). intros _ W. split; [exact E3|]. split; [exact (Hw W)|].
    intros addr' id' _. apply find_core. exact E6.
  - intros (Hid & W & C1 & C2 & C3 & C4). destruct (Hq C2 C3). split; [congruence|]. split; [exact (Hw W)|].
    split; [exact (Hm C1)|]. split; [assumption|]. split; [assumption|exact (stored_same _ _ _ E6 C4)].
  - intros (A1 & A2 & A3 & A4 & A5). split; [congruence|]. split; [congruence|]. split; [exact (Hs A3)|].
    split; [exact (Hw A4)|exact (stored_same _ _ _ E6 A5)].
Qed.

Lemma steps_ret {A} (x : A) : steps (ret x). Proof. apply resp_ret, Step_refl. Qed.
Lemma steps_lift {A} (x : Outcome A) : steps (lift x). Proof. apply resp_lift, Step_refl. Qed.
Lemma steps_failM {A} : steps (@failM A). Proof. apply steps_lift. Qed.
Lemma steps_getc : steps getc. Proof. apply resp_getc, Step_refl. Qed.
Lemma steps_bind {A B} (m : PM A) (f : A -> PM B) : steps m -> (forall a, steps (f a)) -> steps (bindP m f).
Proof. apply resp_bind, Step_trans. Qed.
Lemma steps_if {A} (b : bool) (f g : PM A) : steps f -> steps g -> steps (if b then f else g).
Proof. apply resp_if. Qed.

Lemma steps_upd_pool f :
  (forall p p', f p = Ok p' -> 0 <= q_nb p -> 0 <= q_eb p -> 0 <= q_nb p' /\ 0 <= q_eb p') -> steps (upd_pool f).
Proof.
  intros Hf. apply (resp_upd_pool Step Step_refl). intros c p E.
  apply Step_same; try reflexivity; [left; reflexivity|auto|exact (Hf _ _ E)|auto].
Qed.
Lemma steps_upd_mtp f :
  (forall m m', f m = Ok m' -> m_coll_asset m' = m_coll_asset m /\ m_cust_asset m' = m_cust_asset m /\
                               (0 <= m_cust_amt m -> 0 <= m_cust_amt m')) -> steps (upd_mtp f).
Proof.
  intros Hf. apply (resp_upd_mtp Step Step_refl). intros c m E. destruct (Hf _ _ E) as (A1 & A2 & A3).
  apply Step_same; try reflexivity; [left; reflexivity|exact A3|auto|].
  unfold shape, on_pool, pool_asset_of. cbn. rewrite A1, A2. auto.
Qed.
Lemma steps_set_pool : steps set_pool.
Proof. apply resp_modc. intros c. apply Step_same; try reflexivity; [right; exists (c_pool c); reflexivity|auto..]. Qed.
Lemma steps_bank_send from to d x : steps (bank_send from to d x).
Proof. apply (resp_bank_send Step Step_refl). intros c b _. apply Step_same; try reflexivity; [left; reflexivity|auto..]. Qed.

(* a write of the position store at the context's own key *)
Lemma Step_own_key c s' :
  ms_params s' = ms_params (c_s c) -> ms_height s' = ms_height (c_s c) -> ms_pools s' = ms_pools (c_s c) ->
  (mtps_wf (c_s c) -> mtps_wf s' /\
     (forall a i, a <> c_addr c \/ i <> c_id c -> find_mtp s' a i = find_mtp (c_s c) a i) /\
     forall P, stored P (c_s c) -> P (c_addr c) (c_id c) (c_mtp c) -> stored P s') ->
  Step c (c <| c_s := s' |>).
Proof.
  intros Ep Eh Epl H. split; [|split; [split; [reflexivity|left; exact Epl]|split]].
  - unfold FR. cbn. do 2 (split; [reflexivity|]). split; [exact Ep|]. split; [exact Eh|].
    intros _ W. destruct (H W) as (W' & F & _). split; [reflexivity|]. split; [exact W'|exact F].
  - intros (Hid & W & C1 & C2 & C3 & C4). destruct (H W) as (W' & _ & S). split; [exact Hid|]. split; [exact W'|].
    split; [exact C1|]. split; [exact C2|]. split; [exact C3|exact (S _ C4 C1)].
  - intros (A1 & A2 & A3 & A4 & A5). destruct (H A4) as (W' & _ & S). split; [exact A1|]. split; [exact A2|]. split; [exact A3|].
    split; [exact W'|exact (S _ A5 (conj A2 (conj A1 A3)))].
Qed.
Lemma steps_set_mtp : steps set_mtp.
Proof.
  apply resp_modc. intros c. destruct (Z.eqb_spec (c_id c) 0) as [E|E].
  - (* a position without an id yet: nothing is said about it *)
    split; [|split; [split; [reflexivity|left; reflexivity]|split; intros H; exfalso; [exact (proj1 H E)|exact (proj1 (proj2 H) E)]]].
    unfold FR. cbn. do 4 (split; [reflexivity|]). intros Hc. contradiction.
  - apply Step_own_key; try reflexivity. intros W.
    split; [eapply mtps_wf_set; [exact W|apply wf_set, mtps_of_wf, W|reflexivity]|]. split; [|intros P; apply stored_put].
    intros a i Hk. rewrite find_put. destruct (Z.eqb_spec a (c_addr c)); destruct (Z.eqb_spec i (c_id c)); cbn [andb]; tauto.
Qed.
Lemma steps_destroy_mtp : steps destroy_mtp.
Proof.
  apply (resp_destroy_mtp Step Step_refl). intros c _. apply Step_own_key; try reflexivity. intros W.
  match goal with |- mtps_wf ?s1 /\ _ =>
    assert (E : ms_mtps s1 = set (c_addr c) (del (c_id c) (mtps_of (c_s c) (c_addr c))) (ms_mtps (c_s c))) by reflexivity end.
  split; [exact (mtps_wf_set _ _ _ _ W (wf_del _ _ (mtps_of_wf _ _ W)) E)|]. split; [|intros P HS _; exact (stored_del _ _ _ _ _ W E HS)].
  intros a i Hk. rewrite (find_del _ _ _ _ a i W E).
  destruct (Z.eqb_spec a (c_addr c)); destruct (Z.eqb_spec i (c_id c)); cbn [andb]; tauto.
Qed.

(* steps_walk goes down binds, ifs and matches and closes the leaves with keeper_steps (the primitives, then each keeper
   function once proved). field_ok is the side condition at upd_pool / upd_mtp: a field update never writes the position's
   assets and writes results of sdk.Uint operations, which are non-negative *)
Create HintDb keeper_steps discriminated.
#[export] Hint Resolve steps_ret steps_lift steps_failM steps_getc steps_set_pool steps_set_mtp steps_destroy_mtp steps_bank_send : keeper_steps.
Ltac field_ok :=
  let H := fresh "H" in intros ? ? H; intros; cbn beta in H; repeat inv1 H; use_uints; subst; cbn; repeat split; intros; lia.
Ltac steps_walk :=
  repeat first
    [ solve [auto 1 with keeper_steps nocore]
    | simple apply @steps_upd_pool; field_ok
    | simple apply @steps_upd_mtp; field_ok
    | simple apply @steps_bind; [|intro]
    | simple apply @steps_if
    | match goal with |- steps (match ?x with _ => _ end) => destruct x; cbn beta iota zeta end ].

Lemma steps_take_fund_payment amount asset pct fund : steps (take_fund_payment amount asset pct fund).
Proof. unfold take_fund_payment. steps_walk. Qed.
Lemma steps_take_out_custody : steps take_out_custody.
Proof. unfold take_out_custody. steps_walk. Qed.
Lemma steps_take_in_custody : steps take_in_custody.
Proof. unfold take_in_custody. steps_walk. Qed.
#[export] Hint Resolve steps_take_fund_payment steps_take_out_custody steps_take_in_custody : keeper_steps.
Lemma steps_incremental i : steps (incremental_interest_payment i).
Proof. unfold incremental_interest_payment. steps_walk. Qed.
(* not built from bind (it catches the incremental payment's error): resp_handle by hand *)
Lemma steps_handle_interest i : steps (handle_interest_payment i).
Proof. apply (resp_handle Step Step_refl Step_trans i (steps_incremental i)). steps_walk. Qed.
Lemma steps_add_block_interest fin : steps (add_block_interest fin).
Proof. unfold add_block_interest. steps_walk. Qed.
#[export] Hint Resolve steps_handle_interest steps_add_block_interest : keeper_steps.
Lemma steps_process_interest : steps process_interest.
Proof. unfold process_interest. steps_walk. Qed.
Lemma steps_repay r tf : steps (repay r tf).
Proof. unfold repay. steps_walk. Qed.
Lemma steps_mid_epoch_interest : steps mid_epoch_interest.
Proof. unfold mid_epoch_interest. steps_walk. Qed.
#[export] Hint Resolve steps_repay steps_mid_epoch_interest : keeper_steps.
Lemma steps_force_close adm tf : steps (force_close_long adm tf).
Proof. unfold force_close_long. steps_walk. Qed.
Lemma steps_close_long : steps close_long.
Proof. unfold close_long. steps_walk. Qed.
Lemma steps_process_mtp : steps process_mtp.
Proof.
  apply (resp_process_mtp Step Step_refl Step_trans); [apply steps_process_interest|apply steps_force_close].
Qed.

Lemma frames_take_fund_payment amount asset pct fund : frames (take_fund_payment amount asset pct fund).
Proof. apply steps_frames, steps_take_fund_payment. Qed.
Lemma frames_take_out_custody : frames take_out_custody.
Proof. apply steps_frames, steps_take_out_custody. Qed.
Lemma frames_handle_interest i : frames (handle_interest_payment i).
Proof. apply steps_frames, steps_handle_interest. Qed.
Lemma frames_add_block_interest fin : frames (add_block_interest fin).
Proof. apply steps_frames, steps_add_block_interest. Qed.
Lemma frames_repay r tf : frames (repay r tf).
Proof. apply steps_frames, steps_repay. Qed.
Lemma frames_mid_epoch_interest : frames mid_epoch_interest.
Proof. apply steps_frames, steps_mid_epoch_interest. Qed.
Theorem frames_process_mtp : frames process_mtp.
Proof. apply steps_frames, steps_process_mtp. Qed.

Lemma kg_ret {A} (x : A) : keepsG (ret x). Proof. apply steps_kg, steps_ret. Qed.
Lemma kg_failM {A} : keepsG (@failM A). Proof. apply steps_kg, steps_failM. Qed.
Lemma kg_set_pool : keepsG set_pool. Proof. apply steps_kg, steps_set_pool. Qed.
Lemma kg_set_mtp : keepsG set_mtp. Proof. apply steps_kg, steps_set_mtp. Qed.
Lemma kg_bank_send from to d x : keepsG (bank_send from to d x).
Proof. apply steps_kg, steps_bank_send. Qed.
Lemma kg_destroy_mtp : keepsG destroy_mtp.
Proof. apply steps_kg, steps_destroy_mtp. Qed.
Lemma kg_take_fund_payment amount asset pct fund : keepsG (take_fund_payment amount asset pct fund).
Proof. apply steps_kg, steps_take_fund_payment. Qed.
Lemma kg_take_out_custody : keepsG take_out_custody.
Proof. apply steps_kg, steps_take_out_custody. Qed.
Lemma kg_handle_interest i : keepsG (handle_interest_payment i).
Proof. apply steps_kg, steps_handle_interest. Qed.
Lemma kg_add_block_interest fin : keepsG (add_block_interest fin).
Proof. apply steps_kg, steps_add_block_interest. Qed.
Lemma kg_repay r tf : keepsG (repay r tf).
Proof. apply steps_kg, steps_repay. Qed.
Lemma kg_mid_epoch_interest : keepsG mid_epoch_interest.
Proof. apply steps_kg, steps_mid_epoch_interest. Qed.

Lemma pf_ret {A} (x : A) : pframes (ret x). Proof. apply steps_pf, steps_ret. Qed.
Lemma pf_upd_pool f : pframes (upd_pool f).
Proof. refine (resp_upd_pool PF PF_refl f _). intros c p _. split; [reflexivity|left; reflexivity]. Qed.
Lemma pf_upd_mtp f : pframes (upd_mtp f).
Proof. refine (resp_upd_mtp PF PF_refl f _). intros c m _. split; [reflexivity|left; reflexivity]. Qed.
Lemma pf_set_pool : pframes set_pool.
Proof. apply steps_pf, steps_set_pool. Qed.
Lemma pf_set_mtp : pframes set_mtp.
Proof. apply steps_pf, steps_set_mtp. Qed.
Lemma pf_destroy_mtp : pframes destroy_mtp.
Proof. apply steps_pf, steps_destroy_mtp. Qed.
Lemma pf_bank_send from to d x : pframes (bank_send from to d x).
Proof. apply steps_pf, steps_bank_send. Qed.
Lemma pf_take_fund_payment amount asset pct fund : pframes (take_fund_payment amount asset pct fund).
Proof. apply steps_pf, steps_take_fund_payment. Qed.
Lemma pf_take_out_custody : pframes take_out_custody.
Proof. apply steps_pf, steps_take_out_custody. Qed.
Lemma pf_handle_interest i : pframes (handle_interest_payment i).
Proof. apply steps_pf, steps_handle_interest. Qed.
Lemma pf_add_block_interest fin : pframes (add_block_interest fin).
Proof. apply steps_pf, steps_add_block_interest. Qed.
Lemma pf_repay r tf : pframes (repay r tf). Proof. apply steps_pf, steps_repay. Qed.
Lemma pf_mid_epoch_interest : pframes mid_epoch_interest. Proof. apply steps_pf, steps_mid_epoch_interest. Qed.

Lemma sh_ret {A} (x : A) : keepsSH (ret x). Proof. apply steps_sh, steps_ret. Qed.
Lemma sh_upd_pool f : keepsSH (upd_pool f).
Proof. refine (resp_upd_pool (fun c c' => SH c -> SH c') (fun c H => H) f _). intros c p _ H. exact H. Qed.
Lemma sh_set_pool : keepsSH set_pool. Proof. apply steps_sh, steps_set_pool. Qed.
Lemma sh_bank_send from to d x : keepsSH (bank_send from to d x).
Proof. apply steps_sh, steps_bank_send. Qed.
Lemma sh_set_mtp : keepsSH set_mtp.
Proof. apply steps_sh, steps_set_mtp. Qed.
Lemma sh_destroy_mtp : keepsSH destroy_mtp.
Proof. apply steps_sh, steps_destroy_mtp. Qed.
Lemma sh_take_fund_payment amount asset pct fund : keepsSH (take_fund_payment amount asset pct fund).
Proof. apply steps_sh, steps_take_fund_payment. Qed.
Lemma sh_take_out_custody : keepsSH take_out_custody. Proof. apply steps_sh, steps_take_out_custody. Qed.
Lemma sh_handle_interest i : keepsSH (handle_interest_payment i).
Proof. apply steps_sh, steps_handle_interest. Qed.
Lemma sh_add_block_interest fin : keepsSH (add_block_interest fin). Proof. apply steps_sh, steps_add_block_interest. Qed.
Lemma sh_repay r tf : keepsSH (repay r tf). Proof. apply steps_sh, steps_repay. Qed.
Lemma sh_mid_epoch_interest : keepsSH mid_epoch_interest. Proof. apply steps_sh, steps_mid_epoch_interest. Qed.

Lemma in_find s a inner i m : mtps_wf s -> In (a, inner) (ms_mtps s) -> In (i, m) inner -> find_mtp s a i = Some m.
Proof.
  intros [Ho Hi] Ha Hin. unfold find_mtp, mtps_of. rewrite (in_get _ _ _ Ho Ha).
  apply in_get; [exact (proj1 (Forall_forall _ _) Hi _ Ha)|exact Hin].
Qed.

Lemma tot_ge_stored g s addr id m : mtps_wf s -> stored (fun _ _ m' => 0 <= g m') s -> find_mtp s addr id = Some m -> g m <= tot g s.
Proof. intros Hw Hg. apply tot_ge. intros a inner i m' Ha Hi. exact (Hg a i m' (in_find _ _ _ _ _ Hw Ha Hi)). Qed.
Lemma tot_nonneg_stored g s : mtps_wf s -> stored (fun _ _ m' => 0 <= g m') s -> 0 <= tot g s.
Proof. intros Hw Hg. apply tot_nonneg. intros a inner i m' Ha Hi. exact (Hg a i m' (in_find _ _ _ _ _ Hw Ha Hi)). Qed.
Lemma g_cust_nonneg a s : stored_nonneg s -> stored (fun _ _ m => 0 <= g_nc a m) s /\ stored (fun _ _ m => 0 <= g_ec a m) s.
Proof. intros Hn. split; intros addr id m Hf; unfold g_nc, g_ec; destruct (_ =? _); [exact (Hn _ _ _ Hf)|lia|exact (Hn _ _ _ Hf)|lia]. Qed.

Definition key_of (t : Z * Z * mtp) : Z * Z := let '(addr, id, _) := t in (addr, id).
Lemma all_mtps_in s addr id m : mtps_wf s -> In (addr, id, m) (all_mtps s) -> find_mtp s addr id = Some m.
Proof.
  intros Hw Hin. unfold all_mtps in Hin. apply in_concat in Hin. destruct Hin as (l & Hl & Hin).
  apply in_map_iff in Hl. destruct Hl as ([a inner] & <- & Ha). cbn [fst snd] in Hin.
  apply in_map_iff in Hin. destruct Hin as ([i m'] & E & Hi'). cbn [fst snd] in E. injection E as <- <- <-.
  exact (in_find _ _ _ _ _ Hw Ha Hi').
Qed.
Lemma find_in_all s addr id m : find_mtp s addr id = Some m -> In (addr, id, m) (all_mtps s).
Proof.
  unfold find_mtp, mtps_of, all_mtps. destruct (get addr (ms_mtps s)) as [inner|] eqn:E; [|discriminate]. intros Hf.
  apply in_concat. exists (map (fun im => (addr, fst im, snd im)) inner). split.
  - apply in_map_iff. exists (addr, inner). split; [reflexivity|exact (get_in _ _ _ E)].
  - apply in_map_iff. exists (id, m). split; [reflexivity|exact (get_in _ _ _ Hf)].
Qed.
Lemma stored_all (P : Z -> Z -> mtp -> Prop) s : Forall (fun t => let '(a, i, m) := t in P a i m) (all_mtps s) -> stored P s.
Proof. intros H a i m Hf. exact (proj1 (Forall_forall _ _) H _ (find_in_all _ _ _ _ Hf)). Qed.
Lemma get_all {V} (Q : Z -> V -> Prop) (m : store V) : Forall (fun kv => Q (fst kv) (snd kv)) m -> forall k v, get k m = Some v -> Q k v.
Proof. intros H k v Hg. exact (proj1 (Forall_forall _ _) H _ (get_in _ _ _ Hg)). Qed.
Lemma nodup_app {A} (l1 l2 : list A) : NoDup l1 -> NoDup l2 -> (forall x, In x l1 -> ~ In x l2) -> NoDup (l1 ++ l2).
Proof.
  induction l1 as [|x l1 IH]; intros N1 N2 D; [exact N2|]. cbn [app]. inversion N1 as [|? ? Hx N1']; subst. constructor.
  - rewrite in_app_iff. intros [H|H]; [contradiction|]. exact (D x (or_introl eq_refl) H).
  - apply IH; [exact N1'|exact N2|]. intros y Hy. apply D. right; exact Hy.
Qed.
Lemma all_mtps_nodup s : mtps_wf s -> NoDup (map key_of (all_mtps s)).
Proof.
  intros [[lo Ho] Hi]. unfold all_mtps. revert lo Ho Hi. induction (ms_mtps s) as [|[a inner] rest IH]; intros lo Ho Hi; [constructor|].
  cbn [map concat fst snd]. rewrite map_app. cbn in Ho. destruct Ho as [H1 H2]. inversion Hi as [|? ? Hw Hi']; subst. cbn [snd] in Hw.
  apply nodup_app.
  - rewrite map_map. destruct Hw as [lo' Hs]. pose proof (sorted_keys_nodup lo' inner Hs) as N.
    clear - N. induction inner as [|[i m] inner IHi]; [constructor|]. cbn [map fst] in *. inversion N as [|? ? Hn N']; subst. constructor; [|apply IHi; exact N'].
    intros Hin. apply Hn. apply in_map_iff in Hin. destruct Hin as ([i' m'] & E & Hin). cbn in E. injection E as <-. apply in_map_iff. exists (i', m'). split; [reflexivity|exact Hin].
  - exact (IH a H2 Hi').
  - intros [a' i'] Hin1 Hin2. rewrite map_map in Hin1. apply in_map_iff in Hin1. destruct Hin1 as ([i m] & E & _). cbn in E. injection E as Ea Ei.
    apply in_map_iff in Hin2. destruct Hin2 as ([[a2 i2] m2] & E2 & Hin2). cbn in E2. injection E2 as Ea2 Ei2.
    apply in_concat in Hin2. destruct Hin2 as (l & Hl & Hin2). apply in_map_iff in Hl. destruct Hl as ([a3 inner3] & El & Ha3). subst l.
    apply in_map_iff in Hin2. destruct Hin2 as ([i3 m3] & E3 & _). cbn in E3. injection E3 as Ea3 _ _.
    pose proof (sorted_from_lb a rest a3 inner3 H2 Ha3). lia.
Qed.
Lemma nodup_map_filter {A B} (f : A -> B) (g : A -> bool) l : NoDup (map f l) -> NoDup (map f (filter g l)).
Proof.
  induction l as [|x l IH]; intros N; [constructor|]. cbn [map filter] in *. inversion N as [|? ? Hx N']; subst.
  destruct (g x); [|apply IH; exact N']. cbn [map]. constructor; [|apply IH; exact N'].
  intros Hin. apply Hx. apply in_map_iff in Hin. destruct Hin as (y & E & Hy). apply filter_In in Hy. apply in_map_iff. exists y. split; [exact E|exact (proj1 Hy)].
Qed.

Lemma on_pool_shape a m : on_pool a m <-> shape m /\ pool_asset_of m = a.
Proof.
  unfold shape, on_pool, pool_asset_of. split.
  - intros (Ha & [(H1 & H2)|(H1 & H2)]); rewrite H1.
    + rewrite Z.eqb_refl, H2. auto.
    + rewrite H2. destruct (Z.eqb_spec a ROWAN); [contradiction|]. auto.
  - intros (H & <-). exact H.
Qed.

(* what the pass relies on in the state it starts from *)
Definition BBReady (s : mstate) (asset : Z) (pool : mpool) : Prop :=
  mtps_wf s /\ stored_nonneg s /\ 0 <= q_nb pool /\ 0 <= q_eb pool /\
  q_nb pool + q_nc pool <= bal (ms_bank s) CLP_MODULE ROWAN /\ q_eb pool + q_ec pool <= bal (ms_bank s) CLP_MODULE asset /\
  epoch_position s = 0 /\ pct_ok s /\ funds_not_module s /\
  (forall addr id m, find_mtp s addr id = Some m -> id <> 0 /\ addr <> CLP_MODULE /\ on_pool (pool_asset_of m) m).

(* what the pass keeps from one position to the next; ms: the positions still to come *)
Definition Inv2 (a : Z) (st : mstate) (p : mpool) (ms : list (Z * Z * mtp)) : Prop :=
  LoopInv a st p /\ BBReady st a p /\ NoDup (map key_of ms) /\
  (forall addr id m, In (addr, id, m) ms -> find_mtp st addr id = Some m /\ on_pool a m).

Lemma custody_covered a st p addr id m :
  pool_agrees st a p -> mtps_wf st -> stored_nonneg st -> 0 <= q_nb p -> 0 <= q_eb p ->
  q_nb p + q_nc p <= bal (ms_bank st) CLP_MODULE ROWAN -> q_eb p + q_ec p <= bal (ms_bank st) CLP_MODULE a ->
  find_mtp st addr id = Some m -> on_pool a m ->
  0 <= m_cust_amt m <= bal (ms_bank st) CLP_MODULE (m_cust_asset m).
Proof.
  intros (A1 & A2 & _ & _) Hw Hn Hnb Heb Bn Be Hf (Ha & Hon). split; [exact (Hn _ _ _ Hf)|].
  destruct (g_cust_nonneg a st Hn) as (Gn0 & Ge0).
  destruct Hon as [(H1 & H2)|(H1 & H2)].
  - rewrite H2. pose proof (tot_ge_stored (g_ec a) st addr id m Hw Ge0 Hf) as Hle. unfold g_ec in Hle at 1. rewrite H2, Z.eqb_refl in Hle. lia.
  - rewrite H1. pose proof (tot_ge_stored (g_nc a) st addr id m Hw Gn0 Hf) as Hle. unfold g_nc in Hle at 1. rewrite H2, Z.eqb_refl in Hle. lia.
Qed.

Lemma epoch_position_frame s s' : ms_params s' = ms_params s -> ms_height s' = ms_height s -> epoch_position s' = epoch_position s.
Proof. unfold epoch_position. intros -> ->. reflexivity. Qed.
Lemma pct_ok_frame s s' : ms_params s' = ms_params s -> pct_ok s -> pct_ok s'.
Proof. unfold pct_ok. intros ->. auto. Qed.
Lemma funds_not_module_frame s s' : ms_params s' = ms_params s -> funds_not_module s -> funds_not_module s'.
Proof. unfold funds_not_module. intros ->. auto. Qed.

Definition pass_rel (a : Z) (st : mstate) (p : mpool) (st' : mstate) (p' : mpool) : Prop :=
  (ms_pools st' = ms_pools st \/ exists q, ms_pools st' = set a q (ms_pools st)) /\
  bal (ms_bank st') CLP_MODULE ROWAN - (q_nb p' + q_nc p') = bal (ms_bank st) CLP_MODULE ROWAN - (q_nb p + q_nc p) /\
  bal (ms_bank st') CLP_MODULE a - (q_eb p' + q_ec p') = bal (ms_bank st) CLP_MODULE a - (q_eb p + q_ec p) /\
  (forall d, d <> ROWAN -> d <> a -> bal (ms_bank st') CLP_MODULE d = bal (ms_bank st) CLP_MODULE d) /\
  ms_params st' = ms_params st /\ ms_height st' = ms_height st.
Lemma pass_rel_refl a st p : pass_rel a st p st p.
Proof. unfold pass_rel. repeat split; auto. Qed.
Lemma pass_rel_trans a s1 p1 s2 p2 s3 p3 : pass_rel a s1 p1 s2 p2 -> pass_rel a s2 p2 s3 p3 -> pass_rel a s1 p1 s3 p3.
Proof.
  intros (P1 & A2 & A3 & A4 & A5 & A6) (Q1 & B2 & B3 & B4 & B5 & B6). split.
  - destruct P1 as [P1|(q1 & P1)]; destruct Q1 as [Q1|(q2 & Q1)]; rewrite Q1, P1; [left; reflexivity|right; eauto|right; eauto|right; exists q2; apply set_set_same].
  - split; [lia|]. split; [lia|]. split; [intros d Hd1 Hd2; rewrite B4 by assumption; apply A4; assumption|]. split; congruence.
Qed.

Lemma inv2_head a st p addr id m rest :
  Inv2 a st p ((addr, id, m) :: rest) ->
  find_mtp st addr id = Some m /\ on_pool a m /\ id <> 0 /\ epoch_position st = 0 /\ pct_ok st /\
  0 <= m_cust_amt m <= bal (ms_bank st) CLP_MODULE (m_cust_asset m).
Proof.
  intros (HL & (Hw & Hn & Hnb & Heb & Bn & Be & Hep & Hpct & Hfm & Hsh) & Hnd & Hall).
  destruct (Hall addr id m (or_introl eq_refl)) as (Hf & Hon).
  split; [exact Hf|]. split; [exact Hon|]. split; [exact (proj1 (Hsh _ _ _ Hf))|]. split; [exact Hep|]. split; [exact Hpct|].
  exact (custody_covered a st p addr id m (proj1 HL) Hw Hn Hnb Heb Bn Be Hf Hon).
Qed.

Lemma inv2_step a st p addr id m rest c' o :
  Inv2 a st p ((addr, id, m) :: rest) -> process_mtp (mkCtx st p m a addr id) = (c', o) ->
  Inv2 a (c_s c') (c_pool c') rest /\ pass_rel a st p (c_s c') (c_pool c') /\ (forall h, o = Ok h -> h <= mp_safety (ms_params st)).
Proof.
  intros HI E. destruct (inv2_head _ _ _ _ _ _ _ HI) as (Hf & Hon & Hid & Hep & Hpct & Hfunds).
  destruct HI as (HL & (Hw & Hn & Hnb & Heb & Bn & Be & _ & _ & Hfm & Hsh) & Hnd & Hall).
  destruct (Hsh _ _ _ Hf) as (_ & Hmod & Hshape).
  destruct (process_mtp_spec a st p m addr id c' o E Hep HL Hf Hon Hid Hpct Hfunds) as (HL' & Hsafe & HGap).
  destruct (HGap Hfm Hmod) as (G1 & G2 & G3 & G4).
  destruct (steps_process_mtp _ _ _ E) as ((F1 & F2 & F3 & F4 & F5) & (_ & HP) & HG & HS). cbn [c_s c_addr c_id c_asset] in *.
  destruct (F5 Hid Hw) as (_ & Hw' & Hfr).
  destruct (HG (conj Hid (conj Hw (conj (Hn _ _ _ Hf) (conj Hnb (conj Heb Hn)))))) as (_ & _ & (_ & Hnb' & Heb' & Hn')).
  destruct (HS (conj Hmod (conj Hid (conj Hshape (conj Hw Hsh))))) as (_ & _ & _ & _ & Hsh').
  unfold Gn, Ge in G1, G2. cbn [c_s c_pool c_asset] in G1, G2. rewrite G3 in G2. cbn [c_asset] in G2.
  cbn [map key_of] in Hnd. apply NoDup_cons_iff in Hnd. destruct Hnd as [Hnin Hnd'].
  split; [|split; [|exact Hsafe]].
  - split; [exact HL'|]. split; [|split; [exact Hnd'|]].
    { split; [exact Hw'|]. split; [exact Hn'|]. split; [exact Hnb'|]. split; [exact Heb'|]. split; [lia|]. split; [lia|].
      split; [rewrite (epoch_position_frame _ _ F3 F4); exact Hep|].
      split; [exact (pct_ok_frame _ _ F3 Hpct)|]. split; [exact (funds_not_module_frame _ _ F3 Hfm)|exact Hsh']. }
    intros addr' id' m' Hin. destruct (Hall addr' id' m' (or_intror Hin)) as (Hf' & Hon').
    split; [|exact Hon']. rewrite Hfr; [exact Hf'|].
    destruct (Z.eq_dec addr' addr) as [Ea|]; [|left; assumption]. destruct (Z.eq_dec id' id) as [Ei|]; [|right; assumption].
    exfalso. apply Hnin. rewrite <- Ea, <- Ei. change (addr', id') with (key_of (addr', id', m')). apply in_map. exact Hin.
  - split; [exact HP|]. split; [lia|]. split; [lia|]. split; [exact G4|]. split; [exact F3|exact F4].
Qed.

Lemma steps_ok_of_inv2 a : forall ms st p, Inv2 a st p ms -> steps_ok a st p ms.
Proof.
  induction ms as [|[[addr id] m] rest IH]; intros st p HI; cbn [steps_ok]; [exact I|].
  destruct (inv2_head _ _ _ _ _ _ _ HI) as (H1 & H2 & H3 & H4 & H5 & H6). do 6 (split; [assumption|]).
  destruct (process_mtp (mkCtx st p m a addr id)) as [c' o] eqn:E. apply IH. exact (proj1 (inv2_step _ _ _ _ _ _ _ _ _ HI E)).
Qed.

Lemma bb_loop_full a : forall ms st p closed st' p' closed',
  fold_left (bb_step a) ms (st, p, closed) = (st', p', closed') -> Inv2 a st p ms ->
  Inv2 a st' p' [] /\ pass_rel a st p st' p' /\
  (forall addr id h, In (addr, id, h) closed' -> In (addr, id, h) closed \/ h <= mp_safety (ms_params st)).
Proof.
  induction ms as [|[[addr id] m] rest IH]; intros st p closed st' p' closed' H HI.
  - cbn in H. injection H as <- <- <-. split; [exact HI|]. split; [apply pass_rel_refl|auto].
  - cbn [fold_left] in H. unfold bb_step at 2 in H.
    destruct (process_mtp (mkCtx st p m a addr id)) as [c1 o1] eqn:E.
    destruct (inv2_step a st p addr id m rest c1 o1 HI E) as (HI1 & P1 & Hsafe).
    destruct (IH _ _ _ _ _ _ H HI1) as (HIf & P2 & Hc).
    split; [exact HIf|]. split; [exact (pass_rel_trans _ _ _ _ _ _ _ P1 P2)|].
    intros a0 i0 h0 Hin. destruct (Hc _ _ _ Hin) as [Hin'|Hle]; [|right; rewrite <- (proj1 (proj2 (proj2 (proj2 (proj2 P1))))); exact Hle].
    destruct o1 as [h| |]; [|left; exact Hin'..].
    apply in_app_or in Hin'. destruct Hin' as [Hin'|[Heq|[]]]; [left; exact Hin'|].
    injection Heq as <- <- <-. right. apply Hsafe. reflexivity.
Qed.

Lemma inv2_start s asset pool new_rate :
  SumInv s -> get asset (ms_pools s) = Some pool -> asset <> ROWAN -> BBReady s asset pool ->
  Inv2 asset (bb_s1 s asset pool new_rate) (bb_p1 pool new_rate) (bb_list (bb_s1 s asset pool new_rate) asset).
Proof.
  intros HS Hg Ha HB. pose proof HB as (Hw & _ & _ & _ & _ & _ & _ & _ & _ & Hpos).
  split; [exact (LoopInv_start s asset pool new_rate HS Hg Ha)|]. destruct new_rate as [[r rn] rd].
  split; [exact HB|]. split.
  - unfold bb_list. apply nodup_map_filter. apply (all_mtps_nodup s Hw).
  - intros addr id m Hin. unfold bb_list in Hin. apply filter_In in Hin. destruct Hin as [Hin Hfl].
    pose proof (all_mtps_in s addr id m Hw Hin) as Hf. destruct (Hpos _ _ _ Hf) as (_ & _ & Hon).
    split; [exact Hf|]. apply on_pool_shape. split; [exact Hon|].
    destruct Hon as (Hpa & Hcases). unfold pool_asset_of in *.
    apply orb_true_iff in Hfl. destruct Hcases as [(C1 & C2)|(C1 & C2)].
    + rewrite C1, Z.eqb_refl in *. destruct Hfl as [Hfl|Hfl]; apply Z.eqb_eq in Hfl; congruence.
    + destruct (Z.eqb_spec (m_coll_asset m) ROWAN) as [Ec|_]; destruct Hfl as [Hfl|Hfl]; apply Z.eqb_eq in Hfl; congruence.
Qed.

(* C13 for the whole pass over a pool, with no condition on the intermediate states; begin_block_pool_ready has the
   bound on the liquidated positions *)
Theorem begin_block_pool_full s asset pool new_rate s' closed :
  SumInv s -> get asset (ms_pools s) = Some pool -> asset <> ROWAN -> BBReady s asset pool ->
  begin_block_pool s asset pool new_rate = Ok (s', closed) ->
  SumInv s' /\ (forall addr id h, In (addr, id, h) closed -> exists st0, h <= mp_safety (ms_params st0)).
Proof.
  intros HS Hg Ha HB H. apply (begin_block_pool_preserves s asset pool new_rate s' closed HS Hg Ha H).
  apply steps_ok_of_inv2, inv2_start; assumption.
Qed.

Definition fnat (p : mpool) : Z := q_nb p + q_nc p.
Definition MReady (s : mstate) : Prop :=
  mtps_wf s /\ stored_nonneg s /\ stored_shape s /\ pct_ok s /\ funds_not_module s /\ wf (ms_pools s) /\
  (forall a p, get a (ms_pools s) = Some p -> a <> ROWAN /\ 0 <= q_nb p /\ 0 <= q_eb p /\ q_eb p + q_ec p <= bal (ms_bank s) CLP_MODULE a) /\
  sumf fnat (ms_pools s) <= bal (ms_bank s) CLP_MODULE ROWAN.

(* what the module account holds beyond what the pools record: natively over all pools, and per pool in its own token *)
Definition gapN (s : mstate) : Z := bal (ms_bank s) CLP_MODULE ROWAN - sumf fnat (ms_pools s).
Definition gapE (s : mstate) (a : Z) : Z :=
  bal (ms_bank s) CLP_MODULE a - match get a (ms_pools s) with Some p => q_eb p + q_ec p | None => 0 end.
Definition same_gap (s s' : mstate) : Prop := gapN s' = gapN s /\ (forall a, a <> ROWAN -> gapE s' a = gapE s a).
Lemma same_gap_refl s : same_gap s s.
Proof. split; reflexivity. Qed.
Lemma same_gap_trans s1 s2 s3 : same_gap s1 s2 -> same_gap s2 s3 -> same_gap s1 s3.
Proof. intros (A1 & A2) (B1 & B2). split; [congruence|]. intros a Ha. rewrite (B2 a Ha). exact (A2 a Ha). Qed.

(* the native side: the other pools' shares are non-negative *)
Lemma ready_native_bound s a pool : SumInv s -> MReady s -> get a (ms_pools s) = Some pool ->
  q_nb pool + q_nc pool <= bal (ms_bank s) CLP_MODULE ROWAN.
Proof.
  intros (HP & _) (Hw & Hn & Hsh & Hpct & Hfm & Hwp & Hpools & Hsum) Hg.
  assert (Hnn : forall kv, In kv (ms_pools s) -> 0 <= fnat (snd kv)).
  { intros [a' p'] Hin. cbn [snd]. pose proof (in_get _ _ _ Hwp Hin) as Hg'. destruct (Hpools _ _ Hg') as (Ha' & Hnb' & _).
    destruct (HP _ _ Hg' Ha') as (A1 & _). unfold fnat. rewrite A1.
    pose proof (tot_nonneg_stored (g_nc a') s Hw (proj1 (g_cust_nonneg a' s Hn))). lia. }
  pose proof (sumf_in_le fnat (ms_pools s) (a, pool) Hnn (get_in _ _ _ Hg)) as Hle. cbn [snd] in Hle. unfold fnat in Hle at 1. lia.
Qed.

Lemma mready_bbready s a pool : SumInv s -> MReady s -> epoch_position s = 0 -> get a (ms_pools s) = Some pool -> BBReady s a pool.
Proof.
  intros HS HM Hep Hg. pose proof (ready_native_bound s a pool HS HM Hg) as Bn.
  destruct HM as (Hw & Hn & Hsh & Hpct & Hfm & Hwp & Hpools & Hsum). destruct (Hpools _ _ Hg) as (Ha & Hnb & Heb & Hbe).
  split; [exact Hw|]. split; [exact Hn|]. split; [exact Hnb|]. split; [exact Heb|]. split; [exact Bn|].
  split; [exact Hbe|]. split; [exact Hep|]. split; [exact Hpct|]. split; [exact Hfm|exact Hsh].
Qed.

(* one pool, the stored positions and the bank change: ready again, with the same gaps, if the module account's coins
   moved as that pool's records did *)
Lemma ready_assemble s s' a p0 p' :
  MReady s -> get a (ms_pools s) = Some p0 ->
  mtps_wf s' -> stored_nonneg s' -> stored_shape s' -> ms_params s' = ms_params s ->
  ms_pools s' = set a p' (ms_pools s) -> 0 <= q_nb p' -> 0 <= q_eb p' ->
  bal (ms_bank s') CLP_MODULE ROWAN - fnat p' = bal (ms_bank s) CLP_MODULE ROWAN - fnat p0 ->
  bal (ms_bank s') CLP_MODULE a - (q_eb p' + q_ec p') = bal (ms_bank s) CLP_MODULE a - (q_eb p0 + q_ec p0) ->
  (forall d, d <> ROWAN -> d <> a -> bal (ms_bank s') CLP_MODULE d = bal (ms_bank s) CLP_MODULE d) ->
  MReady s' /\ same_gap s s'.
Proof.
  intros (Hw & Hn & Hsh & Hpct & Hfm & Hwp & Hpools & Hsum) Hg Hw' Hn' Hsh' Hpar Ep Hnb' Heb' Gn Ge Gd.
  destruct (Hpools _ _ Hg) as (Ha & Hnb & Heb & Hbe).
  assert (HgN : gapN s' = gapN s) by (unfold gapN; rewrite Ep, sumf_set, Hg; cbn [fopt]; lia).
  assert (HgE : forall a', a' <> ROWAN -> gapE s' a' = gapE s a').
  { intros a' Hr. unfold gapE. rewrite Ep. destruct (Z.eq_dec a' a) as [->|Hne]; [rewrite get_set_same, Hg; lia|].
    rewrite get_set_other by exact Hne. rewrite (Gd a' Hr Hne). reflexivity. }
  split; [|split; assumption].
  split; [exact Hw'|]. split; [exact Hn'|]. split; [exact Hsh'|].
  split; [exact (pct_ok_frame _ _ Hpar Hpct)|]. split; [exact (funds_not_module_frame _ _ Hpar Hfm)|].
  rewrite Ep. split; [apply wf_set; exact Hwp|]. split.
  - intros a' q Hg'. destruct (Z.eq_dec a' a) as [->|Hne].
    + rewrite get_set_same in Hg'. injection Hg' as <-. split; [exact Ha|]. split; [exact Hnb'|]. split; [exact Heb'|]. lia.
    + rewrite get_set_other in Hg' by exact Hne. destruct (Hpools _ _ Hg') as (Q1 & Q2 & Q3 & Q4).
      split; [exact Q1|]. split; [exact Q2|]. split; [exact Q3|]. rewrite (Gd a' Q1 Hne). exact Q4.
  - unfold gapN in HgN. rewrite Ep in HgN. lia.
Qed.

Theorem begin_block_pool_ready s a pool new_rate s' closed :
  SumInv s -> MReady s -> epoch_position s = 0 -> get a (ms_pools s) = Some pool ->
  begin_block_pool s a pool new_rate = Ok (s', closed) ->
  SumInv s' /\ MReady s' /\ epoch_position s' = 0 /\ same_gap s s' /\ ms_params s' = ms_params s /\
  (forall addr id h, In (addr, id, h) closed -> h <= mp_safety (ms_params s)).
Proof.
  intros HS HM Hep Hg H.
  pose proof (mready_bbready s a pool HS HM Hep Hg) as HB. assert (Ha : a <> ROWAN) by (apply HM in Hg; apply Hg).
  split; [exact (proj1 (begin_block_pool_full s a pool new_rate s' closed HS Hg Ha HB H))|].
  destruct (begin_block_pool_cases _ _ _ _ _ _ H) as [(-> & ->)|[(-> & ->)|(s2 & p2 & EF & ->)]].
  - (* not enabled for margin: only the block interest fields are reset *)
    destruct HB as (Hw & Hn & Hnb & Heb & _ & _ & _ & _ & _ & Hsh).
    set (p0 := pool <| q_bin := 0 |> <| q_bie := 0 |>).
    destruct (ready_assemble s (s <| ms_pools := set a p0 (ms_pools s) |>) a pool p0 HM Hg);
      [exact Hw|exact Hn|exact Hsh|reflexivity|reflexivity|exact Hnb|exact Heb|reflexivity|reflexivity|intros; reflexivity|].
    split; [assumption|]. split; [exact Hep|]. split; [assumption|]. split; [reflexivity|intros ? ? ? []].
  - split; [exact HM|]. split; [exact Hep|]. split; [apply same_gap_refl|]. split; [reflexivity|intros ? ? ? []].
  - destruct (bb_loop_full a _ _ _ _ _ _ _ EF (inv2_start s a pool new_rate HS Hg Ha HB)) as (HIf & (Q1 & Q2 & Q3 & Q4 & Q5 & Q6) & Hc).
    destruct HIf as (_ & (Hw2 & Hn2 & Hnb2 & Heb2 & _ & _ & _ & _ & _ & Hsh2) & _).
    assert (Epools : set a p2 (ms_pools s2) = set a p2 (ms_pools s)).
    { destruct Q1 as [Q1|(q & Q1)]; rewrite Q1; unfold bb_s1; cbn -[Store.set]; rewrite ?set_set_same; reflexivity. }
    destruct new_rate as [[r rn] rd]. cbn in Q2, Q3.
    destruct (ready_assemble s (s2 <| ms_pools := set a p2 (ms_pools s2) |>) a pool p2 HM Hg);
      [exact Hw2|exact Hn2|exact Hsh2|exact Q5|exact Epools|exact Hnb2|exact Heb2|exact Q2|exact Q3|exact Q4|].
    split; [assumption|]. split; [rewrite <- Hep; exact (epoch_position_frame _ _ Q5 Q6)|]. split; [assumption|]. split; [exact Q5|].
    intros addr id h Hin. destruct (Hc _ _ _ Hin) as [[]|Hle]. exact Hle.
Qed.

Lemma begin_block_pools_ready : forall assets s rates closed0 s' closed,
  SumInv s -> MReady s -> epoch_position s = 0 -> begin_block_pools s assets rates closed0 = Ok (s', closed) ->
  SumInv s' /\ MReady s' /\ same_gap s s' /\
  (forall addr id h, In (addr, id, h) closed -> In (addr, id, h) closed0 \/ h <= mp_safety (ms_params s)).
Proof.
  induction assets as [|a rest IH]; intros s rates closed0 s' closed HS HM Hep H; cbn [begin_block_pools] in H.
  - injection H as <- <-. split; [exact HS|]. split; [exact HM|]. split; [apply same_gap_refl|auto].
  - destruct (get a (ms_pools s)) as [p|] eqn:Hg; [|eapply IH; eassumption].
    destruct (begin_block_pool s a p (hd (0, 0, 1) rates)) as [[s1 cl1]| |] eqn:E; cbn [bind] in H; try discriminate.
    destruct (begin_block_pool_ready s a p _ s1 cl1 HS HM Hep Hg E) as (HS1 & HM1 & Hep1 & G1 & P1 & Hc1).
    cbn [fst snd] in H. destruct (IH s1 _ _ _ _ HS1 HM1 Hep1 H) as (HS' & HM' & G2 & Hc2).
    split; [exact HS'|]. split; [exact HM'|]. split; [exact (same_gap_trans _ _ _ G1 G2)|].
    intros addr id h Hin. destruct (Hc2 _ _ _ Hin) as [Hin'|Hle]; [|right; rewrite <- P1; exact Hle].
    apply in_app_or in Hin'. destruct Hin' as [Hin'|Hin']; [left; exact Hin'|right; exact (Hc1 _ _ _ Hin')].
Qed.

(* C13 and C01 for the margin begin blocker as a whole, with the safety bound for every liquidated position; outside
   epoch boundaries nothing happens *)
Theorem begin_block_margin_ready s rates s' closed :
  SumInv s -> MReady s -> begin_block_margin s rates = Ok (s', closed) ->
  SumInv s' /\ MReady s' /\ same_gap s s' /\ (forall addr id h, In (addr, id, h) closed -> h <= mp_safety (ms_params s)).
Proof.
  intros HS HM H. unfold begin_block_margin in H. destruct (Z.eqb_spec (epoch_position s) 0) as [Hep|_].
  - destruct (begin_block_pools_ready _ _ _ _ _ _ HS HM Hep H) as (A1 & A2 & A3 & A5).
    split; [exact A1|]. split; [exact A2|]. split; [exact A3|]. intros addr id h Hin. destruct (A5 _ _ _ Hin) as [[]|Hle]. exact Hle.
  - injection H as <- <-. split; [exact HS|]. split; [exact HM|]. split; [apply same_gap_refl|intros ? ? ? []].
Qed.

(* C01 for the whole margin begin blocker *)
Theorem begin_block_margin_gap s rates s' closed :
  SumInv s -> MReady s -> begin_block_margin s rates = Ok (s', closed) ->
  same_gap s s'.
Proof. intros HS HM H. exact (proj1 (proj2 (proj2 (begin_block_margin_ready s rates s' closed HS HM H)))). Qed.
