(* C05: the consensus test of the oracle keeper is a float64 comparison, float64(power)/float64(total) >= 0.7. With IEEE-754
   binary64 arithmetic as formalised by Flocq (both integers exactly representable, the division correctly rounded to
   nearest-even, the constant 0.7 rounded to nearest-even) it decides exactly 10 * power >= 7 * total whenever the total is at
   most 2^40 — voting power is counted in whole rowan (sdk.DefaultPowerReduction = 10^18, app.go), the supply is a few 10^9.
   Uses the standard library's real numbers (their axioms are listed by Print Assumptions). *)
From Coq Require Import ZArith Reals Lra Lia.
From Flocq Require Import Core.
Open Scope R_scope.

Definition fexp64 := FLT_exp (-1074) 53.
#[local] Instance prec53 : Prec_gt_0 53. Proof. reflexivity. Qed.
Definition rnd64 (x : R) : R := round radix2 fexp64 ZnearestE x.

(* the float64 below 0.7 that is nearest to it, and its predecessor *)
Definition F0 : R := F2R (Float radix2 6305039478318694 (-53)).
Definition F1 : R := F2R (Float radix2 6305039478318693 (-53)).

Lemma bpow53 : bpow radix2 (-53) = / 9007199254740992.
Proof. unfold bpow. simpl Z.pow_pos. reflexivity. Qed.

Lemma F0_val : F0 = 6305039478318694 / 9007199254740992.
Proof. unfold F0, F2R. cbn [Fnum Fexp]. rewrite bpow53. reflexivity. Qed.
Lemma F1_val : F1 = 6305039478318693 / 9007199254740992.
Proof. unfold F1, F2R. cbn [Fnum Fexp]. rewrite bpow53. reflexivity. Qed.

Lemma F_format m : (Z.abs m < 2 ^ 53)%Z -> generic_format radix2 fexp64 (F2R (Float radix2 m (-53))).
Proof. intros H. apply generic_format_FLT. exists (Float radix2 m (-53)); [reflexivity | exact H | cbn; lia]. Qed.
Lemma F0_format : generic_format radix2 fexp64 F0. Proof. apply F_format. reflexivity. Qed.
Lemma F1_format : generic_format radix2 fexp64 F1. Proof. apply F_format. reflexivity. Qed.

Lemma F0_le : F0 <= 7 / 10. Proof. rewrite F0_val. lra. Qed.
Lemma F1_lt : F1 < F0. Proof. rewrite F0_val, F1_val. lra. Qed.
Lemma F1_ge : 7 / 10 - / 17592186044416 <= F1. Proof. rewrite F1_val. lra. Qed.

Lemma lin (p q z : R) : 10 * p <= 7 * q - 1 -> z <= / 10 -> p <= 7 * / 10 * q - z.
Proof. intros. lra. Qed.

(* float64(p) / float64(q) >= 0.7  <->  10 p >= 7 q, for integers 0 < q <= 2^40 (both exactly representable, the division
   correctly rounded, the constant 0.7 rounded to nearest) *)
Theorem float_threshold (p q : Z) : (0 < q <= 2 ^ 40)%Z ->
  (rnd64 (7 / 10) <= rnd64 (IZR p / IZR q) <-> (7 * q <= 10 * p)%Z).
Proof.
  intros [Hq0 Hq1]. assert (Hq : 0 < IZR q) by (apply IZR_lt; exact Hq0).
  assert (Hq' : IZR q <= 1099511627776) by (apply IZR_le in Hq1; exact Hq1).
  split.
  - intros H. destruct (Z_le_gt_dec (7 * q) (10 * p)) as [|Hgt]; [assumption|exfalso].
    assert (Hx : IZR p / IZR q <= F1).
    { apply Rle_trans with (2 := F1_ge).
      assert (Hi : (10 * p <= 7 * q - 1)%Z) by lia. apply IZR_le in Hi. rewrite minus_IZR, !mult_IZR in Hi.
      apply Rmult_le_reg_r with (IZR q); [exact Hq|]. unfold Rdiv. rewrite Rmult_assoc, Rinv_l by lra. rewrite Rmult_1_r.
      assert (/ 17592186044416 * IZR q <= / 10) by (apply Rmult_le_reg_l with 17592186044416; [lra|]; rewrite <- Rmult_assoc, Rinv_r by lra; lra).
      lra. }
    assert (H1 : rnd64 (IZR p / IZR q) <= F1) by (apply round_le_generic; [typeclasses eauto|typeclasses eauto|exact F1_format|exact Hx]).
    assert (H0 : F0 <= rnd64 (7 / 10)) by (apply round_ge_generic; [typeclasses eauto|typeclasses eauto|exact F0_format|exact F0_le]).
    pose proof F1_lt. lra.
  - intros Hi. apply round_le; [typeclasses eauto|typeclasses eauto|].
    apply IZR_le in Hi. rewrite !mult_IZR in Hi.
    apply Rmult_le_reg_r with (IZR q); [exact Hq|]. unfold Rdiv at 2. rewrite Rmult_assoc, Rinv_l by lra. lra.
Qed.


Close Scope R_scope.
From Sif Require Import Model.Bridge.
Open Scope Z_scope.

(* the model's rational tests are the float tests *)
Theorem ratio_ge_is_float (p q : Z) : 0 < q <= 2 ^ 40 ->
  (ratio_ge p q = true <-> (rnd64 (7 / 10) <= rnd64 (IZR p / IZR q))%R).
Proof.
  intros Hq. rewrite (float_threshold p q Hq). unfold ratio_ge. destruct (Z.eqb_spec q 0); [lia|]. apply Z.leb_le.
Qed.
Theorem ratio_lt_is_float (p q : Z) : 0 < q <= 2 ^ 40 ->
  (ratio_lt p q = true <-> (rnd64 (IZR p / IZR q) < rnd64 (7 / 10))%R).
Proof.
  intros Hq. unfold ratio_lt. destruct (Z.eqb_spec q 0); [lia|]. rewrite Z.ltb_lt. pose proof (float_threshold p q Hq) as H. split.
  - intros Hlt. apply Rnot_le_lt. intros Hc. apply H in Hc. lia.
  - intros Hlt. destruct (Z_lt_ge_dec (10 * p) (7 * q)) as [|Hge]; [assumption|]. exfalso.
    assert (Hle : 7 * q <= 10 * p) by lia. apply H in Hle. apply (Rlt_irrefl (rnd64 (7 / 10))). eapply Rle_lt_trans; eassumption.
Qed.
