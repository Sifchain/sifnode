(* Facts about Base/SdkMath.v; D = PREC = 10^18 in the comments. *)
From Coq Require Import ZArith Lia Bool.
From Sif Require Import Base.Outcome Base.SdkMath.
Local Open Scope Z_scope.

Lemma PREC_pos : 0 < PREC. Proof. reflexivity. Qed.
Lemma PREC_half : PREC = 2 * HALF. Proof. reflexivity. Qed.
Lemma PREC_eq : PREC = 10 ^ 18. Proof. reflexivity. Qed.
Lemma PREC_ge2 : 2 <= PREC. Proof. discriminate. Qed.
Global Opaque PREC HALF.

(* | chop_round_pos d - d / D | <= 1/2, stated on integers *)
Lemma chop_round_pos_bounds d :
  2 * d - PREC <= 2 * PREC * chop_round_pos d <= 2 * d + PREC.
Proof.
  unfold chop_round_pos. pose proof PREC_pos. pose proof PREC_half.
  pose proof (Z.div_mod d PREC ltac:(lia)) as Hd.
  pose proof (Z.mod_pos_bound d PREC ltac:(lia)) as Hm.
  destruct (Z.eqb_spec (d mod PREC) 0); [nia|].
  destruct (Z.ltb_spec (d mod PREC) HALF); [nia|].
  destruct (Z.ltb_spec HALF (d mod PREC)); [nia|].
  destruct (Z.even (d / PREC)); nia.
Qed.

Lemma chop_round_pos_nonneg d : 0 <= d -> 0 <= chop_round_pos d.
Proof. intros H. pose proof PREC_pos. pose proof (chop_round_pos_bounds d). nia. Qed.

Lemma chop_round_pos_mono a b : 0 <= a <= b -> chop_round_pos a <= chop_round_pos b.
Proof.
  intros [Ha Hab]. destruct (Z.eq_dec a b) as [->|Hne]; [lia|].
  (* a larger result for a would, by the half-unit bounds, force b <= a *)
  pose proof PREC_pos. destruct (chop_round_pos_bounds a) as (_ & Ua). destruct (chop_round_pos_bounds b) as (Lb & _).
  apply Z.nlt_ge. intros Hlt.
  assert (PREC * (chop_round_pos b + 1) <= PREC * chop_round_pos a) by (apply Z.mul_le_mono_nonneg_l; lia). lia.
Qed.

Lemma chop_round_bounds d : 0 <= d -> 2 * d - PREC <= 2 * PREC * chop_round d <= 2 * d + PREC.
Proof. intros H. unfold chop_round. destruct (Z.ltb_spec d 0); [lia|]. apply chop_round_pos_bounds. Qed.

Lemma chop_round_nonneg d : 0 <= d -> 0 <= chop_round d.
Proof. intros H. unfold chop_round. destruct (Z.ltb_spec d 0); [lia|]. apply chop_round_pos_nonneg, H. Qed.

Lemma chop_round_exact x : 0 <= x -> chop_round (x * PREC) = x.
Proof.
  intros Hx. pose proof PREC_pos. unfold chop_round. destruct (Z.ltb_spec (x * PREC) 0); [nia|].
  unfold chop_round_pos. rewrite Z.mod_mul by lia. rewrite Z.eqb_refl. apply Z.div_mul. lia.
Qed.

Lemma dec_mul_nonneg a b : 0 <= a -> 0 <= b -> 0 <= dec_mul a b.
Proof. intros. unfold dec_mul. apply chop_round_nonneg. nia. Qed.

Lemma dec_mul_bounds x y : 0 <= x -> 0 <= y -> 2 * (x * y) - PREC <= 2 * PREC * dec_mul x y <= 2 * (x * y) + PREC.
Proof. intros. unfold dec_mul. apply chop_round_bounds. nia. Qed.

Lemma dec_quo_nonneg a b : 0 <= a -> 0 < b -> 0 <= dec_quo a b.
Proof.
  intros. unfold dec_quo. apply chop_round_nonneg. pose proof PREC_pos.
  apply Z.quot_pos; nia.
Qed.

Lemma dec_trunc_int_nonneg d : 0 <= d -> 0 <= dec_trunc_int d.
Proof. intros. unfold dec_trunc_int. pose proof PREC_pos. apply Z.quot_pos; lia. Qed.

Lemma dec_round_int_nonneg d : 0 <= d -> 0 <= dec_round_int d.
Proof. apply chop_round_nonneg. Qed.

Lemma dec_mul_of_int_r q n : 0 <= q -> 0 <= n -> dec_mul q (dec_of_int n) = q * n.
Proof. intros. unfold dec_mul, dec_of_int. rewrite Z.mul_assoc. apply chop_round_exact. nia. Qed.

Lemma dec_quo_of_int a b : b <> 0 -> dec_quo (dec_of_int a) (dec_of_int b) = dec_quo a b.
Proof.
  intros Hb. pose proof PREC_pos. unfold dec_quo, dec_of_int.
  rewrite Z.quot_mul_cancel_r by lia. reflexivity.
Qed.

(* | dec_quo a b - a * D / b | <= 1/2 + 1/D, multiplied out by 2 * D * b *)
Lemma dec_quo_bounds a b : 0 <= a -> 0 < b ->
  2 * a * PREC * PREC - PREC * b - 2 * b < 2 * PREC * (dec_quo a b * b) /\
  2 * PREC * (dec_quo a b * b) <= 2 * a * PREC * PREC + PREC * b.
Proof.
  intros Ha Hb. unfold dec_quo. pose proof PREC_pos as HP.
  set (t := Z.quot (a * PREC * PREC) b).
  assert (Ht0 : 0 <= t) by (apply Z.quot_pos; nia).
  assert (Ht : t * b <= a * PREC * PREC < (t + 1) * b).
  { unfold t. rewrite Z.quot_div_nonneg by nia.
    pose proof (Z.div_mod (a * PREC * PREC) b ltac:(lia)). pose proof (Z.mod_pos_bound (a * PREC * PREC) b Hb). nia. }
  pose proof (chop_round_bounds t Ht0) as Hc. nia.
Qed.

Lemma dec_quo_scaled a T b : 0 <= a -> 0 < T -> 0 <= b ->
  let q := dec_quo a T in
  0 <= q /\ 2 * T * (q * b) <= (2 * a * PREC + T) * b /\
  (2 * a * PREC * PREC - PREC * T - 2 * T) * b <= 2 * PREC * T * (q * b).
Proof.
  intros Ha HT Hb q. pose proof PREC_pos as HP.
  destruct (dec_quo_bounds a T Ha HT) as (Hl & Hh). fold q in Hl, Hh.
  split; [apply dec_quo_nonneg; assumption|].
  assert (Hh' : 2 * (q * T) <= 2 * a * PREC + T) by (apply (Z.mul_le_mono_pos_l _ _ PREC HP); lia).
  split.
  - replace (2 * T * (q * b)) with (2 * (q * T) * b) by ring. apply Z.mul_le_mono_nonneg_r; assumption.
  - replace (2 * PREC * T * (q * b)) with (2 * PREC * (q * T) * b) by ring. apply Z.mul_le_mono_nonneg_r; lia.
Qed.

Lemma dec_trunc_bounds m : 0 <= m -> PREC * dec_trunc_int m <= m < PREC * dec_trunc_int m + PREC.
Proof.
  intros H. unfold dec_trunc_int. pose proof PREC_pos. rewrite Z.quot_div_nonneg by lia.
  pose proof (Z.div_mod m PREC ltac:(lia)). pose proof (Z.mod_pos_bound m PREC ltac:(lia)). lia.
Qed.

Lemma dec_round_bounds m : 0 <= m -> 2 * m - PREC <= 2 * PREC * dec_round_int m <= 2 * m + PREC.
Proof. apply chop_round_bounds. Qed.

Lemma Dquo_ok a b c : Dquo a b = Ok c -> b <> 0 /\ c = dec_quo a b.
Proof.
  unfold Dquo. destruct (Z.eqb_spec b 0); [discriminate|]. unfold ck_dec. destruct (fits_dec _); [|discriminate].
  intros [= <-]. auto.
Qed.
