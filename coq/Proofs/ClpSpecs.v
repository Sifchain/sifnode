(* What a successful handler of x/clp (Model/ClpMsgs.v) writes: each handler's Outcome monad is inverted here, once, and
   the invariants of the AMM are proved from these descriptions, one fact per write. *)
From Coq Require Import ZArith Lia Bool List.
From RecordUpdate Require Import RecordUpdate.
From Sif Require Import Base.Outcome Base.SdkMath Base.Store Base.Bank
  Model.ClpCalc Model.ClpTypes Model.ClpState Model.ClpMsgs Proofs.BankProofs.
Import ListNotations.
Local Open Scope Z_scope.

Lemma require_ok b : require b = Ok tt -> b = true.
Proof. destruct b; [reflexivity|discriminate]. Qed.
Lemma opt_or_fail_ok {A} (o : option A) a : opt_or_fail o = Ok a -> o = Some a.
Proof. destruct o; cbn; [intros [= ->]; reflexivity|discriminate]. Qed.
Lemma ck_uint_ok x y : ck_uint x = Ok y -> y = x /\ 0 <= x.
Proof.
  unfold ck_uint, fits_uint. destruct (Z.leb_spec 0 x); cbn [andb]; [|discriminate].
  destruct (x <? UINT_LIM); [|discriminate]. intros [= <-]. auto.
Qed.
Lemma uint_add_ok a b c : uint_add a b = Ok c -> c = a + b /\ 0 <= a + b.
Proof. apply ck_uint_ok. Qed.
Lemma uint_sub_ok a b c : uint_sub a b = Ok c -> c = a - b /\ 0 <= a - b.
Proof. apply ck_uint_ok. Qed.
Lemma bsend_ok b from to d x b' : bsend b from to d x = Ok b' -> send b from to d x = Some b'.
Proof. apply opt_or_fail_ok. Qed.
Lemma get_pool_ok s a p : get_pool s a = Ok p -> get a (cs_pools s) = Some p.
Proof. apply opt_or_fail_ok. Qed.

(* one step of inversion of [e = Ok _]: a bind, a destructuring let, an if, or the final Ok *)
Ltac inv1 H :=
  match type of H with
  | bind ?e ?k = Ok _ =>
    let x := fresh "x" in let Hx := fresh "Hx" in
    apply bind_ok_inv in H; destruct H as (x & Hx & H); cbn beta in H
  | (let '(_, _) := ?p in _) = Ok _ => (is_var p; destruct p) || (let Ep := fresh "Ep" in destruct p eqn:Ep); cbn beta iota in H
  | (match ?p with (_, _) => _ end) = Ok _ => (is_var p; destruct p) || (let Ep := fresh "Ep" in destruct p eqn:Ep); cbn beta iota in H
  | (if ?c then _ else _) = Ok _ => let E := fresh "E" in destruct c eqn:E; try discriminate H
  | Ok _ = Ok _ => injection H as H
  end.
(* the same step for a bind, naming the bound value (a pattern takes a tuple apart) and the equation of its computation *)
Tactic Notation "bind_inv" hyp(H) "as" simple_intropattern(x) ident(Hx) :=
  apply bind_ok_inv in H; destruct H as (x & Hx & H); cbn beta iota in H.

(* every hypothesis [uint_add/uint_sub a b = Ok c] becomes c = a +/- b and 0 <= c *)
Ltac use_uints := repeat match goal with
  | H : uint_add _ _ = Ok _ |- _ => apply uint_add_ok in H; destruct H as [? ?]
  | H : uint_sub _ _ = Ok _ |- _ => apply uint_sub_ok in H; destruct H as [? ?]
  end.

(* the inner `let` of set_lp (Model/ClpMsgs.v) as a function: set_lp is put_lp after touch, by reflexivity (set_lp_eq) *)
Definition touch (h : Z) (l : lprov) : lprov := if lp_last l =? 0 then l <| lp_last := h |> else l.
Lemma set_lp_eq s a x l : set_lp s a x l = put_lp s a x (touch (cs_height s) l).
Proof. reflexivity. Qed.
Lemma touch_units h l : lp_units (touch h l) = lp_units l.
Proof. unfold touch. destruct (lp_last l =? 0); reflexivity. Qed.
Lemma touch_unlocks h l : lp_unlocks (touch h l) = lp_unlocks l.
Proof. unfold touch. destruct (lp_last l =? 0); reflexivity. Qed.

Lemma lps_for_put s a x l a' : lps_for (put_lp s a x l) a' = if a' =? a then set x l (lps_for s a) else lps_for s a'.
Proof. unfold lps_for, put_lp; cbn. rewrite get_set. destruct (a' =? a); reflexivity. Qed.
Lemma lps_for_del s a x a' : lps_for (del_lp s a x) a' = if a' =? a then del x (lps_for s a) else lps_for s a'.
Proof. unfold lps_for, del_lp; cbn. rewrite get_set. destruct (a' =? a); reflexivity. Qed.
Lemma find_lp_put s a x l a' x' :
  find_lp (put_lp s a x l) a' x' = if (a' =? a) && (x' =? x) then Some l else find_lp s a' x'.
Proof.
  unfold find_lp. rewrite lps_for_put. destruct (Z.eqb_spec a' a) as [->|]; [|reflexivity].
  rewrite get_set. reflexivity.
Qed.
Lemma find_put_same s a x l : find_lp (put_lp s a x l) a x = Some l.
Proof. rewrite find_lp_put, !Z.eqb_refl. reflexivity. Qed.

Lemma put_lp_same s a x l : find_lp s a x = Some l -> put_lp s a x l = s.
Proof.
  unfold find_lp, put_lp, lps_for. intros H. destruct (get a (cs_lps s)) as [m|] eqn:Hm; [|discriminate].
  rewrite (set_get_same x l m H), (set_get_same a m (cs_lps s) Hm). destruct s; reflexivity.
Qed.
Lemma put_put s a x l l' : put_lp (put_lp s a x l') a x l = put_lp s a x l.
Proof. unfold put_lp at 1 3. rewrite lps_for_put, Z.eqb_refl. cbn. rewrite !set_set_same. reflexivity. Qed.
Lemma del_put s a x l' : del_lp (put_lp s a x l') a x = del_lp s a x.
Proof. unfold del_lp. rewrite lps_for_put, Z.eqb_refl. cbn. rewrite del_set_same, set_set_same. reflexivity. Qed.

Lemma put_lp_comm s a p b a' x l : put_lp (with_bank (set_pool s a p) b) a' x l = with_bank (set_pool (put_lp s a' x l) a p) b.
Proof. reflexivity. Qed.
Lemma del_lp_comm s a p b a' x : del_lp (with_bank (set_pool s a p) b) a' x = with_bank (set_pool (del_lp s a' x) a p) b.
Proof. reflexivity. Qed.

Lemma pool_units_symmetric_ok X x P tot pu :
  pool_units_symmetric X x P = Ok (tot, pu) -> tot = P + pu /\ pu = x * P / X.
Proof.
  unfold pool_units_symmetric. destruct (X =? 0); [discriminate|]. intros H. bind_inv H as t Ht. injection H as <- <-.
  apply uint_add_ok in Ht. destruct Ht as [-> _]. auto.
Qed.

Lemma pool_units_symmetric_nonneg X x P tot pu :
  pool_units_symmetric X x P = Ok (tot, pu) -> 0 <= X -> 0 <= x -> 0 <= P -> 0 <= pu.
Proof.
  unfold pool_units_symmetric. destruct (Z.eqb_spec X 0); [discriminate|]. intros H HX Hx HP.
  bind_inv H as t Ht. injection H as _ <-. apply Z.div_pos; [apply Z.mul_nonneg_nonneg; assumption|lia].
Qed.

Lemma calculate_pool_units_spec P R A r a fs fb pm pu lpu st sw :
  calculate_pool_units P R A r a fs fb pm = Ok (pu, lpu, st, sw) ->
  (symmetry_state A a R r = EmptyPool /\ pu = r /\ lpu = r) \/
  (symmetry_state A a R r <> EmptyPool /\ pu = P + lpu /\
   (0 <= P -> 0 <= R -> 0 <= A -> 0 <= r -> 0 <= a -> 0 <= lpu)).
Proof.
  unfold calculate_pool_units. intros H. destruct (symmetry_state A a R r).
  - left. destruct ((a =? 0) || (r =? 0)); [discriminate|]. injection H as <- <- _ _. auto.
  - right. injection H as <- <- _ _. split; [discriminate|]. split; lia.
  - right. bind_inv H as sw0 Hsw. bind_inv H as ac Hac. bind_inv H as Ap HAp. bind_inv H as [pu0 lpu0] Hsym. injection H as <- <- _ _.
    apply uint_sub_ok in Hac. apply uint_add_ok in HAp. destruct Hac as [-> Hac], HAp as [-> HAp].
    split; [discriminate|]. split; [exact (proj1 (pool_units_symmetric_ok _ _ _ _ _ Hsym))|]. intros.
    exact (pool_units_symmetric_nonneg _ _ _ _ _ Hsym HAp Hac ltac:(assumption)).
  - right. bind_inv H as [pu0 lpu0] Hsym. injection H as <- <- _ _.
    split; [discriminate|]. split; [exact (proj1 (pool_units_symmetric_ok _ _ _ _ _ Hsym))|]. intros.
    eapply pool_units_symmetric_nonneg; eassumption.
  - right. bind_inv H as sw0 Hsw. bind_inv H as rc Hrc. bind_inv H as Rp HRp. bind_inv H as [pu0 lpu0] Hsym. injection H as <- <- _ _.
    apply uint_sub_ok in Hrc. apply uint_add_ok in HRp. destruct Hrc as [-> Hrc], HRp as [-> HRp].
    split; [discriminate|]. split; [exact (proj1 (pool_units_symmetric_ok _ _ _ _ _ Hsym))|]. intros.
    exact (pool_units_symmetric_nonneg _ _ _ _ _ Hsym HRp Hrc ltac:(assumption)).
Qed.
Lemma calculate_pool_units_total P R A r a fs fb pm pu lpu st sw :
  calculate_pool_units P R A r a fs fb pm = Ok (pu, lpu, st, sw) ->
  symmetry_state A a R r <> EmptyPool ->
  pu = P + lpu.
Proof. intros H Hne. destruct (calculate_pool_units_spec _ _ _ _ _ _ _ _ _ _ _ _ H) as [(E & _)|(_ & E & _)]; [contradiction|exact E]. Qed.
Lemma calculate_pool_units_empty P R A r a fs fb pm pu lpu st sw :
  calculate_pool_units P R A r a fs fb pm = Ok (pu, lpu, st, sw) ->
  symmetry_state A a R r = EmptyPool -> pu = r /\ lpu = r.
Proof. intros H Hs. destruct (calculate_pool_units_spec _ _ _ _ _ _ _ _ _ _ _ _ H) as [(_ & E)|(Hne & _)]; [exact E|contradiction]. Qed.
Lemma calculate_pool_units_nonneg P R A r a fs fb pm pu lpu st sw :
  0 <= P -> 0 <= R -> 0 <= A -> 0 <= r -> 0 <= a ->
  calculate_pool_units P R A r a fs fb pm = Ok (pu, lpu, st, sw) -> 0 <= pu /\ 0 <= lpu.
Proof.
  intros HP HR HA Hr Ha H.
  destruct (calculate_pool_units_spec _ _ _ _ _ _ _ _ _ _ _ _ H) as [(_ & -> & ->)|(_ & -> & Hnn)]; [lia|].
  specialize (Hnn HP HR HA Hr Ha). lia.
Qed.

Lemma calculate_withdrawal_left_nonneg pu nd ed lpu w asym wn we lft sw :
  calculate_withdrawal pu nd ed lpu w asym = Ok (wn, we, lft, sw) -> 0 <= lft.
Proof.
  unfold calculate_withdrawal. intros H. repeat inv1 H. subst.
  match goal with Hc : to_uint _ = Ok lft |- _ => unfold to_uint in Hc; apply ck_uint_ok in Hc; lia end.
Qed.
Lemma calculate_withdrawal_from_units_left_nonneg pu nd ed lpu wu wn we lft :
  calculate_withdrawal_from_units pu nd ed lpu wu = Ok (wn, we, lft) -> 0 <= lft.
Proof.
  unfold calculate_withdrawal_from_units. intros H. repeat inv1 H. subst.
  match goal with Hc : to_uint _ = Ok lft |- _ => unfold to_uint in Hc; apply ck_uint_ok in Hc; lia end.
Qed.

Lemma filter_len_le {A} (f : A -> bool) l : (length (filter f l) <= length l)%nat.
Proof. induction l as [|x l IH]; cbn; [lia|]. destruct (f x); cbn; lia. Qed.
Lemma filter_length_eq {A} (f : A -> bool) l : length (filter f l) = length l -> filter f l = l.
Proof.
  induction l as [|x l IH]; cbn; [reflexivity|]. destruct (f x); cbn; intros H.
  - f_equal. apply IH. lia.
  - pose proof (filter_len_le f l). lia.
Qed.

(* the record is replaced by its pruned copy (the model skips the write when nothing was pruned: the same state) *)
Lemma prune_lp_spec s a x l s' l' :
  find_lp s a x = Some l -> prune_lp s a x l = (s', l') ->
  s' = put_lp s a x l' /\ lp_units l' = lp_units l /\
  lp_unlocks l' = prune_unlocks (cs_height s) (cp_lock (cs_params s)) (cp_cancel (cs_params s)) (lp_unlocks l).
Proof.
  unfold prune_lp. intros Hf. destruct (Nat.eqb _ _) eqn:E; intros [= <- <-].
  - apply Nat.eqb_eq in E. unfold prune_unlocks in *. rewrite (filter_length_eq _ _ E), (put_lp_same _ _ _ _ Hf). auto.
  - destruct (lp_last _ =? 0); auto.
Qed.

Definition listed (ps : clp_params) (d perm : Z) : Prop := exists bits, reg_entry ps d = Some bits /\ has_perm bits perm = true.
Definition paid_in (b : bank) (sg a e n : Z) (b2 : bank) : Prop :=
  exists b1, send b sg CLP_MODULE a e = Some b1 /\ send b1 sg CLP_MODULE ROWAN n = Some b2.
Definition paid_out (b : bank) (sg a e n : Z) (b2 : bank) : Prop :=
  exists b1, send b CLP_MODULE sg a e = Some b1 /\ send b1 CLP_MODULE sg ROWAN n = Some b2.
Lemma listed_ok ps d perm bits : opt_or_fail (reg_entry ps d) = Ok bits -> require (has_perm bits perm) = Ok tt -> listed ps d perm.
Proof. intros H1 H2. exists bits. split; [exact (opt_or_fail_ok _ _ H1)|exact (require_ok _ H2)]. Qed.

Lemma create_pool_spec s sg a n e s' :
  create_pool s sg a n e = Ok s' ->
  exists b2,
    s' = with_bank (set_pool (put_lp s a sg (mkLp n [] (cs_height s))) a (new_pool n e n)) b2 /\
    listed (cs_params s) a PERM_CLP /\ get a (cs_pools s) = None /\ POOL_THRESHOLD <= n /\ 0 <= e /\
    paid_in (cs_bank s) sg a e n b2.
Proof.
  unfold create_pool. intros H.
  bind_inv H as [] Hthr. bind_inv H as bits Hreg. bind_inv H as [] Hperm. bind_inv H as [] Hnew.
  bind_inv H as [[[pu lpu] st] sw] Hcalc. bind_inv H as [] Hden. bind_inv H as b1 Hb1. bind_inv H as b2 Hb2.
  injection H as <-. apply require_ok, Z.leb_le in Hthr. apply require_ok in Hnew. apply bsend_ok in Hb1, Hb2.
  apply calculate_pool_units_empty in Hcalc; [|reflexivity]. destruct Hcalc as [-> ->].
  exists b2. split; [rewrite set_lp_eq; unfold touch; destruct (lp_last _ =? 0); reflexivity|].
  split; [exact (listed_ok _ _ _ _ Hreg Hperm)|]. split; [destruct (get a (cs_pools s)); [discriminate|reflexivity]|].
  split; [exact Hthr|]. split; [exact (proj1 (send_effect _ _ _ _ _ _ Hb1))|]. exists b1. auto.
Qed.

Definition lp_added (s : clp_state) (a sg lpu : Z) : lprov :=
  mkLp (fopt lp_units (find_lp s a sg) + lpu) (match find_lp s a sg with Some l => lp_unlocks l | None => [] end) (cs_height s).

Lemma add_liquidity_spec s sg a n e s' :
  add_liquidity s sg a n e = Ok s' ->
  exists p pu lpu st sw b2,
    s' = with_bank (set_pool (put_lp s a sg (lp_added s a sg lpu)) a
                      (p <| p_units := pu |> <| p_nb := p_nb p + n |> <| p_eb := p_eb p + e |>)) b2 /\
    (exists nbits ebits, reg_entry (cs_params s) ROWAN = Some nbits /\ reg_entry (cs_params s) a = Some ebits /\
       has_perm ebits PERM_CLP = true /\
       match st with
       | NoSwap => True
       | SellNative => has_perm nbits PERM_DISABLE_SELL = false /\ has_perm ebits PERM_DISABLE_BUY = false
       | BuyNative => has_perm ebits PERM_DISABLE_SELL = false /\ has_perm nbits PERM_DISABLE_BUY = false
       end) /\
    get a (cs_pools s) = Some p /\
    calculate_pool_units (p_units p) (p_nb p + p_nl p) (p_eb p + p_el p) n e
      (fee_rate (cs_params s) ROWAN) (fee_rate (cs_params s) a) (cp_pmtp (cs_params s)) = Ok (pu, lpu, st, sw) /\
    (0 <= p_nb p + p_nl p /\ 0 <= p_eb p + p_el p /\ 0 <= p_nb p + n /\ 0 <= p_eb p + e) /\
    paid_in (cs_bank s) sg a e n b2.
Proof.
  unfold add_liquidity. intros H.
  bind_inv H as nbits Hnreg. bind_inv H as ebits Hereg. bind_inv H as [] Hperm. bind_inv H as p Hp.
  bind_inv H as nd Hnd. bind_inv H as ed Hed. bind_inv H as [[[pu lpu] st] sw] Hcalc. bind_inv H as [] Hside.
  bind_inv H as [] Hzero. bind_inv H as [] Hden. bind_inv H as b1 Hb1. bind_inv H as b2 Hb2.
  bind_inv H as nb' Hnb. bind_inv H as eb' Heb.
  apply get_pool_ok in Hp. apply bsend_ok in Hb1, Hb2. apply uint_add_ok in Hnd, Hed, Hnb, Heb.
  apply opt_or_fail_ok in Hnreg, Hereg. apply require_ok in Hperm.
  destruct Hnd as [-> Hnd], Hed as [-> Hed], Hnb as [-> Hnb], Heb as [-> Heb].
  exists p, pu, lpu, st, sw, b2. split.
  { unfold lp_added. destruct (find_lp s a sg) as [l|].
    - bind_inv H as u' Hu'. injection H as <-. apply uint_add_ok in Hu'. destruct Hu' as [-> _].
      rewrite set_lp_eq. unfold touch. destruct (lp_last _ =? 0); reflexivity.
    - injection H as <-. rewrite set_lp_eq. unfold touch. destruct (lp_last _ =? 0); reflexivity. }
  split.
  { exists nbits, ebits. split; [exact Hnreg|]. split; [exact Hereg|]. split; [exact Hperm|].
    destruct st; [| |exact I]; apply require_ok, andb_prop in Hside; destruct Hside as [H1 H2];
    apply negb_true_iff in H1, H2; auto. }
  split; [exact Hp|]. split; [exact Hcalc|]. split; [auto|]. exists b1. auto.
Qed.

(* the statements of remove_liquidity (Model/ClpMsgs.v) from `burned <- uint_sub ...` on, the same in
   remove_liquidity_units; after the inversion of the statements before them, either handler's remaining equation is
   `removal_tail ... = Ok s'` by conversion *)
Local Open Scope outcome_scope.
Definition removal_tail (s s1 : clp_state) (sg a : Z) (pl : pool) (l : lprov) (wn we lft ed nd : Z) : Outcome clp_state :=
  let ps := cs_params s in
  burned <- uint_sub (lp_units l) lft ;;
  '(us_caller, us_stored) <- use_unlocked false (cs_height s) (cp_lock ps) (lp_unlocks l) burned ;;
  let s2 := set_lp s1 a sg (l <| lp_unlocks := us_stored |>) in
  t <- uint_sub (p_units pl) (lp_units l) ;; units' <- uint_add t lft ;;
  nb' <- uint_sub (p_nb pl) wn ;; eb' <- uint_sub (p_eb pl) we ;;
  let pl' := pl <| p_units := units' |> <| p_nb := nb' |> <| p_eb := eb' |> in
  _ <- health_gate ps a pl' ;;
  keeper_remove s2 sg a pl' we wn (l <| lp_unlocks := us_caller |>) lft ed nd.
Local Close Scope outcome_scope.

(* in this order: the state written; what was read; the units left and the requests consumed for the units burned; the
   pool left, which passes the health gate; the payment *)
Definition removed (s : clp_state) (sg a : Z) (s' : clp_state) : Prop :=
  exists pl l0 wn we lft caller b2,
    let pl' := pl <| p_units := p_units pl - lp_units l0 + lft |> <| p_nb := p_nb pl - wn |> <| p_eb := p_eb pl - we |> in
    s' = with_bank (set_pool (if lft =? 0 then del_lp s a sg else put_lp s a sg (mkLp lft caller (cs_height s))) a pl') b2 /\
    (listed (cs_params s) a PERM_CLP /\ get a (cs_pools s) = Some pl /\ find_lp s a sg = Some l0) /\
    (0 <= lft <= lp_units l0 /\ exists stored,
       use_unlocked false (cs_height s) (cp_lock (cs_params s))
         (prune_unlocks (cs_height s) (cp_lock (cs_params s)) (cp_cancel (cs_params s)) (lp_unlocks l0))
         (lp_units l0 - lft) = Ok (caller, stored)) /\
    (0 <= p_units pl' /\ 0 <= p_nb pl' /\ 0 <= p_eb pl' /\ health_gate (cs_params s) a pl' = Ok tt) /\
    paid_out (cs_bank s) sg a we wn b2.

Lemma removal_tail_spec s s1 sg a pl l0 l wn we lft ed nd s' :
  listed (cs_params s) a PERM_CLP -> get a (cs_pools s) = Some pl -> find_lp s a sg = Some l0 ->
  prune_lp s a sg l0 = (s1, l) -> 0 <= lft ->
  removal_tail s s1 sg a pl l wn we lft ed nd = Ok s' -> removed s sg a s'.
Proof.
  intros Hreg Hp Hf Hprune Hlft H. destruct (prune_lp_spec _ _ _ _ _ _ Hf Hprune) as (-> & Hu & Hul).
  unfold removal_tail in H.
  bind_inv H as burned Hburn. bind_inv H as [caller stored] Huse. bind_inv H as t Ht. bind_inv H as units' Hunits.
  bind_inv H as nb' Hnb. bind_inv H as eb' Heb. bind_inv H as [] Hgate.
  unfold keeper_remove in H. bind_inv H as [] Hdepth. bind_inv H as b1 Hb1. bind_inv H as b2 Hb2.
  apply bsend_ok in Hb1, Hb2. apply uint_sub_ok in Hburn, Ht, Hnb, Heb. apply uint_add_ok in Hunits.
  destruct Hburn as [-> Hburn], Ht as [-> Ht], Hunits as [-> Hunits], Hnb as [-> Hnb], Heb as [-> Heb].
  rewrite Hu, Hul in *. rewrite !set_lp_eq, put_put in *.
  exists pl, l0, wn, we, lft, caller, b2. cbv zeta. split.
  { destruct (lft =? 0); injection H as <-.
    - rewrite del_lp_comm, del_put. reflexivity.
    - rewrite put_lp_comm, put_put. unfold touch. destruct (lp_last _ =? 0); reflexivity. }
  split; [auto|]. split; [split; [lia|exists stored; exact Huse]|]. split; [auto|]. exists b1. auto.
Qed.

Lemma remove_liquidity_spec s sg a w asym s' : remove_liquidity s sg a w asym = Ok s' -> removed s sg a s'.
Proof.
  unfold remove_liquidity. intros H.
  bind_inv H as ebits Hreg. bind_inv H as [] Hperm. bind_inv H as pl Hp. bind_inv H as l0 Hf.
  destruct (prune_lp s a sg l0) as [s1 l] eqn:Hprune.
  bind_inv H as [] Hasym. bind_inv H as mu Hmu. bind_inv H as [] Hle. bind_inv H as nd Hnd. bind_inv H as ed Hed.
  bind_inv H as [[[wn we] lft] sw] Hcalc.
  exact (removal_tail_spec _ _ _ _ _ _ _ _ _ _ _ _ _ (listed_ok _ _ _ _ Hreg Hperm) (get_pool_ok _ _ _ Hp) (opt_or_fail_ok _ _ Hf)
           Hprune (calculate_withdrawal_left_nonneg _ _ _ _ _ _ _ _ _ _ Hcalc) H).
Qed.
Lemma remove_liquidity_units_spec s sg a u s' : remove_liquidity_units s sg a u = Ok s' -> removed s sg a s'.
Proof.
  unfold remove_liquidity_units. intros H.
  bind_inv H as ebits Hreg. bind_inv H as [] Hperm. bind_inv H as pl Hp. bind_inv H as l0 Hf. bind_inv H as [] Hle.
  destruct (prune_lp s a sg l0) as [s1 l] eqn:Hprune.
  bind_inv H as nd Hnd. bind_inv H as ed Hed. bind_inv H as [[wn we] lft] Hcalc.
  exact (removal_tail_spec _ _ _ _ _ _ _ _ _ _ _ _ _ (listed_ok _ _ _ _ Hreg Hperm) (get_pool_ok _ _ _ Hp) (opt_or_fail_ok _ _ Hf)
           Hprune (calculate_withdrawal_from_units_left_nonneg _ _ _ _ _ _ _ _ Hcalc) H).
Qed.

Lemma unlock_spec s sg a u s' :
  unlock s sg a u = Ok s' ->
  exists l0 l', s' = put_lp s a sg l' /\ find_lp s a sg = Some l0 /\ lp_units l' = lp_units l0 /\
    let us0 := prune_unlocks (cs_height s) (cp_lock (cs_params s)) (cp_cancel (cs_params s)) (lp_unlocks l0) in
    fold_left (fun acc r => acc + snd r) us0 0 + u <= lp_units l0 /\
    lp_unlocks l' = us0 ++ [(cs_height s, u)].
Proof.
  unfold unlock. intros H. bind_inv H as l0 Hf. apply opt_or_fail_ok in Hf.
  destruct (prune_lp s a sg l0) as [s1 l] eqn:Hprune. destruct (prune_lp_spec _ _ _ _ _ _ Hf Hprune) as (-> & Hu & Hul).
  bind_inv H as [] Hle. injection H as <-. apply require_ok, Z.leb_le in Hle. rewrite Hu, Hul in Hle.
  exists l0, (touch (cs_height s) (l <| lp_unlocks := lp_unlocks l ++ [(cs_height s, u)] |>)).
  rewrite set_lp_eq, put_put, touch_units, touch_unlocks. cbn [lp_units lp_unlocks]. rewrite Hul. auto.
Qed.
Lemma cancel_unlock_spec s sg a u s' :
  cancel_unlock s sg a u = Ok s' ->
  exists l0 l', s' = put_lp s a sg l' /\ find_lp s a sg = Some l0 /\ lp_units l' = lp_units l0 /\
    exists caller, use_unlocked true (cs_height s) (cp_lock (cs_params s))
      (prune_unlocks (cs_height s) (cp_lock (cs_params s)) (cp_cancel (cs_params s)) (lp_unlocks l0)) u
      = Ok (caller, lp_unlocks l').
Proof.
  unfold cancel_unlock. intros H. bind_inv H as l0 Hf. apply opt_or_fail_ok in Hf.
  destruct (prune_lp s a sg l0) as [s1 l] eqn:Hprune. destruct (prune_lp_spec _ _ _ _ _ _ Hf Hprune) as (-> & Hu & Hul).
  bind_inv H as [caller stored] Huse. injection H as <-. rewrite Hul in Huse.
  exists l0, (touch (cs_height s) (l <| lp_unlocks := stored |>)).
  rewrite set_lp_eq, put_put, touch_units, touch_unlocks. eauto 6.
Qed.

Lemma swap_one_inv tr z sp r f res fee sp' :
  swap_one tr z sp r f = Ok (res, fee, sp') ->
  let X := if tr then sp_eb sp else sp_nb sp in
  let Y := if tr then sp_nb sp else sp_eb sp in
  let lX := if tr then sp_el sp else sp_nl sp in
  let lY := if tr then sp_nl sp else sp_el sp in
  calc_swap_result tr (X + lX) z (Y + lY) r f = Ok (res, fee) /\
  res < Y /\ 0 <= X + z /\ 0 <= X + lX /\ 0 <= Y + lY /\
  sp' = (if tr then mkSpool (Y - res) (X + z) (sp_nl sp) (sp_el sp)
         else mkSpool (X + z) (Y - res) (sp_nl sp) (sp_el sp)) /\
  0 <= Y - res.
Proof.
  unfold swap_one. destruct tr; intros H; cbv zeta.
  - bind_inv H as Xi HXi. bind_inv H as Yi HYi. bind_inv H as [res0 fee0] Hc.
    destruct (Z.leb_spec (sp_nb sp) res0); [discriminate|].
    bind_inv H as X' HX'. bind_inv H as Y' HY'. injection H as <- <- <-.
    apply uint_add_ok in HXi, HYi, HX'. apply uint_sub_ok in HY'.
    destruct HXi as [-> ?], HYi as [-> ?], HX' as [-> ?], HY' as [-> ?]. auto 8.
  - bind_inv H as Xi HXi. bind_inv H as Yi HYi. bind_inv H as [res0 fee0] Hc.
    destruct (Z.leb_spec (sp_eb sp) res0); [discriminate|].
    bind_inv H as X' HX'. bind_inv H as Y' HY'. injection H as <- <- <-.
    apply uint_add_ok in HXi, HYi, HX'. apply uint_sub_ok in HY'.
    destruct HXi as [-> ?], HYi as [-> ?], HX' as [-> ?], HY' as [-> ?]. auto 8.
Qed.

Lemma swap_one_effect tr sent sp r f res fee sp' :
  swap_one tr sent sp r f = Ok (res, fee, sp') ->
  (if tr then sp_eb sp' = sp_eb sp + sent /\ sp_nb sp' = sp_nb sp - res /\ res < sp_nb sp
   else sp_nb sp' = sp_nb sp + sent /\ sp_eb sp' = sp_eb sp - res /\ res < sp_eb sp) /\
  sp_nl sp' = sp_nl sp /\ sp_el sp' = sp_el sp.
Proof.
  intros H. apply swap_one_inv in H. destruct tr; destruct H as (_ & Hlt & _ & _ & _ & -> & _); cbn; auto.
Qed.

Definition leg (tr : bool) (a z pm f : Z) (pools : store pool) (res : Z) (pools' : store pool) : Prop :=
  exists p fee sp,
    get a pools = Some p /\
    swap_one tr z (to_spool p) pm f = Ok (res, fee, sp) /\
    pools' = set a (upd_balances p sp) pools.

(* in this order: what is left alone; the legs (two when neither token is the native one); the payments; the registry *)
Lemma swap_inv s sg sent recv amt mn s' emit :
  swap s sg sent recv amt mn = Ok (s', emit) ->
  let pm := cp_pmtp (cs_params s) in
  let f := fee_rate (cs_params s) sent in
  exists b1 b2 mid pools1,
    (cs_bank s' = b2 /\ cs_lps s' = cs_lps s /\ cs_buckets s' = cs_buckets s /\ cs_params s' = cs_params s /\
     cs_height s' = cs_height s) /\
    ((if negb (sent =? ROWAN) && negb (recv =? ROWAN)
      then leg true sent amt pm f (cs_pools s) mid pools1
      else mid = amt /\ pools1 = cs_pools s) /\
     leg (recv =? ROWAN) (if recv =? ROWAN then sent else recv) mid pm f pools1 emit (cs_pools s')) /\
    (send (cs_bank s) sg CLP_MODULE sent amt = Some b1 /\ mn <= emit /\ send b1 CLP_MODULE sg recv emit = Some b2) /\
    exists sbits rbits, reg_entry (cs_params s) sent = Some sbits /\ reg_entry (cs_params s) recv = Some rbits /\
      has_perm sbits PERM_CLP && has_perm rbits PERM_CLP = true /\
      has_perm sbits PERM_DISABLE_SELL = false /\ has_perm rbits PERM_DISABLE_BUY = false.
Proof.
  unfold swap. intros H. cbv zeta.
  bind_inv H as sbits Hsreg. bind_inv H as rbits Hrreg. bind_inv H as [] Hperm. bind_inv H as [] Hsell. bind_inv H as [] Hbuy.
  bind_inv H as [] Hexists. bind_inv H as b1 Hb1. bind_inv H as [s2 mid] Hfirst.
  bind_inv H as outp Hout. bind_inv H as [[emit0 fee2] sp2] Hsecond. bind_inv H as [] Hmin. bind_inv H as b2 Hb2.
  injection H as <- <-. apply bsend_ok in Hb1, Hb2. apply get_pool_ok in Hout. apply require_ok, Z.leb_le in Hmin.
  apply opt_or_fail_ok in Hsreg, Hrreg. apply require_ok in Hperm. apply require_ok, negb_true_iff in Hsell, Hbuy.
  exists b1, b2, mid, (cs_pools s2).
  assert (Hs2 : (if negb (sent =? ROWAN) && negb (recv =? ROWAN)
                 then leg true sent amt (cp_pmtp (cs_params s)) (fee_rate (cs_params s) sent) (cs_pools s) mid (cs_pools s2)
                 else mid = amt /\ cs_pools s2 = cs_pools s) /\
                cs_bank s2 = b1 /\ cs_lps s2 = cs_lps s /\ cs_buckets s2 = cs_buckets s /\ cs_params s2 = cs_params s /\
                cs_height s2 = cs_height s).
  { destruct (negb (sent =? ROWAN) && negb (recv =? ROWAN)).
    - bind_inv Hfirst as inp Hin. bind_inv Hfirst as [[mid0 fee1] sp1] Hone. injection Hfirst as <- <-.
      apply get_pool_ok in Hin. split; [exists inp, fee1, sp1|]; auto 6.
    - injection Hfirst as <- <-. auto 8. }
  destruct Hs2 as (Hleg1 & Hbank & Hlps & Hbk & Hps & Hh).
  split; [auto 6|]. split; [split; [exact Hleg1|exists outp, fee2, sp2; auto]|].
  split; [split; [exact Hb1|split; [exact Hmin|rewrite <- Hbank; exact Hb2]]|]. exists sbits, rbits. auto 6.
Qed.

Definition del_lps (a : Z) (ls : list (Z * lprov)) (s : clp_state) : clp_state :=
  fold_left (fun s kl => del_lp s a (fst kl)) ls s.
Lemma del_lps_with_bank a ls : forall s b, del_lps a ls (with_bank s b) = with_bank (del_lps a ls s) b.
Proof. induction ls as [|kl ls IH]; intros s b; [reflexivity|]. exact (IH (del_lp s a (fst kl)) b). Qed.

Lemma del_lps_eq a ls : forall s, del_lps a ls s = s <| cs_lps := cs_lps (del_lps a ls s) |>.
Proof. induction ls as [|kl ls IH]; intros s; [destruct s; reflexivity|]. exact (IH (del_lp s a (fst kl))). Qed.

Lemma refund_all_spec ls : forall s a pl nd ed pu nb eb s',
  refund_all s a pl nd ed ls pu nb eb = Ok s' ->
  exists b', s' = with_bank (del_lps a ls s) b' /\
    (0 <= nb -> 0 <= eb -> exists nbf ebf, 0 <= nbf /\ 0 <= ebf /\
       forall d, bal (cs_bank s) CLP_MODULE d
                 - (if d =? ROWAN then nb - nbf else 0) - (if d =? a then eb - ebf else 0)
                 <= bal b' CLP_MODULE d <= bal (cs_bank s) CLP_MODULE d).
Proof.
  induction ls as [|[k l] rest IH]; intros s a pl nd ed pu nb eb s' H; cbn [refund_all] in H.
  - injection H as <-. exists (cs_bank s). split; [destruct s; reflexivity|]. intros Hnb Heb.
    exists nb, eb. repeat split; try assumption; destruct (d =? ROWAN); destruct (d =? a); lia.
  - bind_inv H as [[[wn we] lft] sw] Hcalc. bind_inv H as pu' Hpu. bind_inv H as nb' Hnb'. bind_inv H as eb' Heb'.
    bind_inv H as [] Hden. bind_inv H as b1 Hb1. bind_inv H as b2 Hb2.
    apply uint_sub_ok in Hnb', Heb'. destruct Hnb' as [-> Hnb'], Heb' as [-> Heb'].
    apply bsend_ok, send_effect in Hb1, Hb2. destruct Hb1 as (Hwe & Hbal1 & _), Hb2 as (Hwn & Hbal2 & _).
    destruct (IH _ _ _ _ _ _ _ _ _ H) as (b' & -> & Hbound).
    exists b'. split; [change (del_lp (with_bank s b2) a k) with (with_bank (del_lp s a k) b2); rewrite del_lps_with_bank; reflexivity|].
    intros Hnb Heb.
    destruct (Hbound Hnb' Heb') as (nbf & ebf & Hn0 & He0 & Hbal).
    exists nbf, ebf. split; [exact Hn0|]. split; [exact He0|]. intros d. specialize (Hbal d).
    change (cs_bank (del_lp (with_bank s b2) a k)) with b2 in Hbal. rewrite Hbal2, Hbal1, Z.eqb_refl in Hbal. cbn [andb] in Hbal.
    destruct (Z.eqb_spec d ROWAN); destruct (Z.eqb_spec d a); destruct (Z.eqb_spec CLP_MODULE k); cbn [andb] in Hbal; lia.
Qed.

Lemma decommission_spec s sg a s' :
  decommission s sg a = Ok s' ->
  exists pl b',
    s' = s <| cs_bank := b' |> <| cs_pools := del a (cs_pools s) |> <| cs_lps := cs_lps (del_lps a (lps_for s a) s) |> /\
    get a (cs_pools s) = Some pl /\
    (0 <= p_nb pl -> 0 <= p_eb pl -> exists nbf ebf, 0 <= nbf /\ 0 <= ebf /\
       forall d, bal (cs_bank s) CLP_MODULE d
                 - (if d =? ROWAN then p_nb pl - nbf else 0) - (if d =? a then p_eb pl - ebf else 0)
                 <= bal b' CLP_MODULE d <= bal (cs_bank s) CLP_MODULE d).
Proof.
  unfold decommission. intros H. bind_inv H as pl Hp. bind_inv H as [] Hwl. bind_inv H as [] Hthr.
  bind_inv H as nd Hnd. bind_inv H as ed Hed. bind_inv H as s1 Hrefund. injection H as <-. apply get_pool_ok in Hp.
  destruct (refund_all_spec _ _ _ _ _ _ _ _ _ _ Hrefund) as (b' & -> & Hbound).
  exists pl, b'. split; [rewrite (del_lps_eq a (lps_for s a) s); reflexivity|]. split; [exact Hp|exact Hbound].
Qed.

Lemma add_to_bucket_spec s sg coins s' :
  add_to_bucket s sg coins = Ok s' ->
  exists b', send_all (cs_bank s) sg CLP_MODULE coins = Ok b' /\
    s' = s <| cs_bank := b' |>
           <| cs_buckets := fold_left (fun m c => set (fst c) (getz (fst c) m + snd c) m) coins (cs_buckets s) |>.
Proof. unfold add_to_bucket. intros H. bind_inv H as b' Hb. injection H as <-. eauto. Qed.

Lemma deliver_cases (P : clp_state -> Prop) s fee m :
  let s0 := with_bank s (credit (cs_bank s) (signer_of m) ROWAN (- fee)) in
  P s0 -> (forall s', handle s0 m = Ok s' -> P s') -> P (fst (deliver s fee m)).
Proof. intros s0 H0 Hok. unfold deliver. fold s0. destruct (handle s0 m) as [s'| |] eqn:E; cbn [fst]; auto. Qed.
