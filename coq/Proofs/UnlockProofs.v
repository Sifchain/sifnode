(* C15, one call at a time: what the consumption of unlock requests (UseUnlockedLiquidity) and their pruning do to a
   provider's request list, and that a removal succeeds only through that consumption. *)
From Coq Require Import ZArith Lia Bool List.
From RecordUpdate Require Import RecordUpdate.
From Sif Require Import Base.Outcome Base.SdkMath Base.Store Base.Bank
  Model.ClpCalc Model.ClpTypes Model.ClpState Model.ClpMsgs Proofs.ClpInv.
Import ListNotations.
Local Open Scope Z_scope.

Definition usum (us : list (Z * Z)) : Z := fold_right (fun r acc => snd r + acc) 0 us.
Definition matured (h lock : Z) (r : Z * Z) : bool := fst r + lock <=? h.
Definition nonneg_units (us : list (Z * Z)) : Prop := Forall (fun r => 0 <= snd r) us.

(* the consumption loop: records keep their request heights and order; only matured records (or all,
   for a cancel) lose units; what they lose in total is exactly what was asked for minus what is left *)
Lemma use_loop_spec any h lock us : forall left us' left',
  nonneg_units us -> 0 <= left ->
  use_loop any h lock us left = (us', left') ->
  map fst us' = map fst us /\
  nonneg_units us' /\ 0 <= left' <= left /\
  usum us - usum us' = left - left' /\
  Forall2 (fun r r' => snd r' <= snd r /\ (snd r' < snd r -> any || matured h lock r = true)) us us'.
Proof.
  induction us as [|[rh ru] rest IH]; intros left us' left' Hnn Hl H; cbn [use_loop] in H.
  - injection H as <- <-. cbn. repeat split; try constructor; lia.
  - inversion Hnn as [|? ? Hru Hrest]; subst. cbn [snd] in Hru.
    destruct (any || (rh + lock <=? h)) eqn:Em.
    + destruct (Z.ltb_spec ru left).
      * destruct (use_loop any h lock rest (left - ru)) as [rest' l'] eqn:Hr. injection H as <- <-.
        apply IH in Hr; [|assumption|lia]. destruct Hr as (Hf & Hn' & Hl' & Hs & Hall).
        cbn [map fst usum fold_right snd]. fold (usum rest) (usum rest').
        repeat split; try lia; [f_equal; assumption|constructor; [cbn; lia|assumption]|].
        constructor; [cbn [snd]; split; [lia|intros _; unfold matured; cbn [fst]; exact Em]|assumption].
      * injection H as <- <-. cbn [map fst usum fold_right snd]. fold (usum rest).
        repeat split; try lia; [constructor; [cbn; lia|assumption]|].
        constructor; [cbn [snd]; split; [lia|intros _; unfold matured; cbn [fst]; exact Em]|].
        clear. induction rest; constructor; [split; [lia|intros; lia]|assumption].
    + destruct (use_loop any h lock rest left) as [rest' l'] eqn:Hr. injection H as <- <-.
      apply IH in Hr; [|assumption|assumption]. destruct Hr as (Hf & Hn' & Hl' & Hs & Hall).
      cbn [map fst usum fold_right snd]. fold (usum rest) (usum rest').
      repeat split; try lia; [f_equal; assumption|constructor; [cbn; lia|assumption]|].
      constructor; [cbn [snd]; split; [lia|intros; lia]|assumption].
Qed.

Lemma usum_filter_nonzero us : usum (filter (fun r => negb (snd r =? 0)) us) = usum us.
Proof.
  induction us as [|[rh ru] rest IH]; cbn; [reflexivity|]. fold (usum rest).
  destruct (Z.eqb_spec ru 0); cbn; fold (usum (filter (fun r => negb (snd r =? 0)) rest)); lia.
Qed.

(* UseUnlockedLiquidity with a lock period: success means matured requests covered the whole amount,
   and exactly that amount was taken out of them *)
Lemma use_unlocked_spec any h lock us units caller stored :
  nonneg_units us -> 0 <= units ->
  use_unlocked any h lock us units = Ok (caller, stored) ->
  usum stored = usum caller /\ nonneg_units caller /\
  usum us - usum caller <= units /\
  (lock <> 0 -> usum us - usum caller = units) /\
  Forall2 (fun r r' => snd r' <= snd r /\ (snd r' < snd r -> any || matured h lock r = true)) us caller.
Proof.
  unfold use_unlocked. intros Hnn Hu H.
  destruct (use_loop any h lock us units) as [us' left] eqn:Hl.
  apply use_loop_spec in Hl; [|assumption|assumption]. destruct Hl as (_ & Hn' & Hle & Hs & Hall).
  destruct (negb (lock =? 0) && negb (left =? 0)) eqn:E; [discriminate|]. injection H as <- <-.
  split; [apply usum_filter_nonzero|]. split; [assumption|]. split; [lia|]. split; [|assumption].
  intros Hlk. apply Z.eqb_neq in Hlk. rewrite Hlk in E. cbn in E. apply negb_false_iff, Z.eqb_eq in E. lia.
Qed.

(* with L = 0 no request is needed *)
Lemma use_unlocked_L0 any h us units : exists c st, use_unlocked any h 0 us units = Ok (c, st).
Proof. unfold use_unlocked. destruct (use_loop any h 0 us units). cbn. eauto. Qed.

Lemma prune_unlocks_spec h lock cancel us r :
  In r (prune_unlocks h lock cancel us) <-> In r us /\ h < fst r + lock + cancel /\ snd r <> 0.
Proof.
  unfold prune_unlocks. rewrite filter_In. split; intros (H1 & H2).
  - apply andb_prop in H2. destruct H2 as (Ha & Hb). apply negb_true_iff in Ha, Hb.
    apply Z.leb_gt in Ha. apply Z.eqb_neq in Hb. auto.
  - destruct H2 as (Ha & Hb). split; [assumption|]. apply andb_true_intro. split; apply negb_true_iff.
    + apply Z.leb_gt. lia. + apply Z.eqb_neq. assumption.
Qed.

Lemma usum_prune_le h lock cancel us : nonneg_units us -> usum (prune_unlocks h lock cancel us) <= usum us.
Proof.
  unfold prune_unlocks. induction 1 as [|[rh ru] rest Hr Hrest IH]; cbn; [lia|]. fold (usum rest).
  destruct (_ && _); cbn; fold (usum (filter (fun r => negb (fst r + lock + cancel <=? h) && negb (snd r =? 0)) rest)); cbn in Hr; lia.
Qed.

(* a removal succeeds only if UseUnlockedLiquidity succeeds, on the provider's pruned request list,
   for exactly the number of units the removal burns *)
Lemma removed_requires s sg a s' :
  removed s sg a s' ->
  exists l0 lft caller stored,
    find_lp s a sg = Some l0 /\ 0 <= lp_units l0 - lft /\
    use_unlocked false (cs_height s) (cp_lock (cs_params s))
      (prune_unlocks (cs_height s) (cp_lock (cs_params s)) (cp_cancel (cs_params s)) (lp_unlocks l0))
      (lp_units l0 - lft) = Ok (caller, stored) /\
    (lft <> 0 -> exists l', find_lp s' a sg = Some l' /\ lp_units l' = lft /\ lp_unlocks l' = caller).
Proof.
  intros (pl & l0 & wn & we & lft & caller & b2 & -> & (_ & _ & Hf) & (Hlft & stored & Huse) & _).
  exists l0, lft, caller, stored. split; [exact Hf|]. split; [lia|]. split; [exact Huse|].
  intros Hne. apply Z.eqb_neq in Hne. rewrite Hne. exists (mkLp lft caller (cs_height s)).
  split; [exact (find_put_same s a sg _)|split; reflexivity].
Qed.
Lemma remove_units_requires s sg a u s' :
  remove_liquidity_units s sg a u = Ok s' ->
  exists l0 lft caller stored,
    find_lp s a sg = Some l0 /\ 0 <= lp_units l0 - lft /\
    use_unlocked false (cs_height s) (cp_lock (cs_params s))
      (prune_unlocks (cs_height s) (cp_lock (cs_params s)) (cp_cancel (cs_params s)) (lp_unlocks l0))
      (lp_units l0 - lft) = Ok (caller, stored) /\
    (lft <> 0 -> exists l', find_lp s' a sg = Some l' /\ lp_units l' = lft /\ lp_unlocks l' = caller).
Proof. intros H. exact (removed_requires _ _ _ _ (remove_liquidity_units_spec _ _ _ _ _ H)). Qed.
Lemma remove_requires s sg a w asym s' :
  remove_liquidity s sg a w asym = Ok s' ->
  exists l0 lft caller stored,
    find_lp s a sg = Some l0 /\ 0 <= lp_units l0 - lft /\
    use_unlocked false (cs_height s) (cp_lock (cs_params s))
      (prune_unlocks (cs_height s) (cp_lock (cs_params s)) (cp_cancel (cs_params s)) (lp_unlocks l0))
      (lp_units l0 - lft) = Ok (caller, stored) /\
    (lft <> 0 -> exists l', find_lp s' a sg = Some l' /\ lp_units l' = lft /\ lp_unlocks l' = caller).
Proof. intros H. exact (removed_requires _ _ _ _ (remove_liquidity_spec _ _ _ _ _ _ H)). Qed.
