(* C19: the fee floors and the staking rules of the two ante decorators reach messages nested under authz MsgExec to
   any depth (inside, flatten); the Dec arithmetic of the voting-power projection is exact on whole tokens. *)
From Coq Require Import ZArith List Bool String Lia.
From Sif Require Import Base.Outcome Base.SdkMath Model.Ante Proofs.SdkMathProofs.
Import ListNotations.
Local Open Scope Z_scope.

Lemma fold_max_ge {A} (f : A -> Z) l : forall acc,
  acc <= fold_left (fun a m => Z.max a (f m)) l acc /\
  forall x, In x l -> f x <= fold_left (fun a m => Z.max a (f m)) l acc.
Proof.
  induction l as [|y l IH]; intros acc; cbn [fold_left]; [split; [lia|contradiction]|].
  destruct (IH (Z.max acc (f y))) as (H1 & H2). split; [lia|].
  intros x [->|Hin]; [lia|auto].
Qed.

Lemma min_fee_ge sf ms m : In m (flatten_all ms) -> msg_fee sf m <= min_fee sf ms.
Proof. intros H. unfold min_fee. apply (proj2 (fold_max_ge (msg_fee sf) (flatten_all ms) 0)). exact H. Qed.

Lemma flatten_self m : In m (flatten m).
Proof. destruct m; cbn; auto. Qed.

Lemma flatten_exec_inner inner x y : In x inner -> In y (flatten x) -> In y (flatten (Exec inner)).
Proof.
  intros Hx Hy. cbn [flatten]. right.
  induction inner as [|z r IH]; [contradiction|].
  apply in_or_app. destruct Hx as [->|Hx]; [left; exact Hy|right; apply IH; exact Hx].
Qed.

Lemma flatten_all_in ms m y : In m ms -> In y (flatten m) -> In y (flatten_all ms).
Proof. intros Hm Hy. unfold flatten_all. apply in_flat_map. eauto. Qed.

(* "nested at any depth" as an inductive relation *)
Inductive inside : msg -> msg -> Prop :=
| in_here m : inside m m
| in_deeper x inner y : In x inner -> inside y x -> inside y (Exec inner).

Lemma inside_flatten y m : inside y m -> In y (flatten m).
Proof. induction 1 as [m|x inner y Hx Hy IH]; [apply flatten_self|eapply flatten_exec_inner; eauto]. Qed.

Lemma inside_flatten_all ms top y : In top ms -> inside y top -> In y (flatten_all ms).
Proof. intros Htop Hy. exact (flatten_all_in ms top y Htop (inside_flatten y top Hy)). Qed.

(* C19 fee floor: an accepted transaction pays at least the floor of every message it contains, however deeply wrapped *)
Lemma fee_floor_all sf fee ms top y :
  fee_ok sf fee ms = true -> is_dispensation_single ms = false ->
  In top ms -> inside y top -> 0 < msg_fee sf y -> msg_fee sf y <= fee.
Proof.
  intros Hok Hd Htop Hy Hpos. unfold fee_ok in Hok. rewrite Hd in Hok.
  pose proof (min_fee_ge sf ms y (inside_flatten_all ms top y Htop Hy)) as Hle.
  destruct (Z.eqb_spec (min_fee sf ms) 0) as [E|E]; [lia|].
  apply andb_prop in Hok. destruct Hok as (_ & H2). apply Z.leb_le in H2. lia.
Qed.

Lemma staking_ok_inside total ms top y :
  staking_rules_ok total ms = true -> In top ms -> inside y top -> staking_ok total y = true.
Proof.
  intros Hok Htop Hy. unfold staking_rules_ok in Hok. rewrite forallb_forall in Hok.
  apply Hok, (inside_flatten_all ms top y Htop Hy).
Qed.

(* C19 commission: no accepted transaction creates or edits a validator below 5% *)
Lemma commission_all total ms top url r :
  staking_rules_ok total ms = true -> In top ms ->
  (inside (Leaf url (SCreateValidator r)) top \/ inside (Leaf url (SEditValidator (Some r))) top) ->
  MIN_COMMISSION <= r.
Proof.
  intros Hok Htop [Hin|Hin]; apply (staking_ok_inside _ _ _ _ Hok Htop) in Hin; apply Z.leb_le in Hin; exact Hin.
Qed.

(* the quotient q of n by d rounds n/d to 18 digits; D = 1000 * K, the limit is 6.6 (percent) = 6600 * K *)
Lemma power_core K n d q :
  0 < K -> 0 < d ->
  2 * n * (1000 * K) * (1000 * K) - 1000 * K * d - 2 * d < 2 * (1000 * K) * (q * d) ->
  q * 100 < 6600 * K ->
  n * 1000 < 66 * d.
Proof.
  intros HK Hd Hl Hq.
  assert (Hqd : K * (q * d) <= K * ((66 * K - 1) * d)).
  { apply Z.mul_le_mono_nonneg_l; [lia|]. apply Z.mul_le_mono_nonneg_r; lia. }
  assert (HKd : 1 * d <= K * d) by (apply Z.mul_le_mono_nonneg_r; lia).
  assert (H : n * 1000 * (2000 * (K * K)) < 66 * d * (2000 * (K * K))) by lia.
  apply Z.mul_lt_mono_pos_r in H; nia.
Qed.

(* the Dec computation of the projected power can only make the check stricter than the exact ratio *)
Lemma projected_power_exact vt av total at_ :
  0 <= vt + av -> 0 < total + at_ ->
  projected_power vt av total at_ < MAX_VOTING_POWER ->
  (vt + av) * 1000 < 66 * (total + at_).
Proof.
  intros Ha Hb H. unfold projected_power in H.
  rewrite dec_quo_of_int, dec_mul_of_int_r in H by (try apply dec_quo_nonneg; lia).
  destruct (dec_quo_bounds (vt + av) (total + at_) Ha Hb) as (Hl & _).
  assert (EP : PREC = 1000 * 10 ^ 15) by (rewrite PREC_eq; reflexivity).
  rewrite EP in Hl. change MAX_VOTING_POWER with (6600 * 10 ^ 15) in H.
  exact (power_core (10 ^ 15) _ _ _ (Z.pow_pos_nonneg 10 15 eq_refl ltac:(discriminate)) Hb Hl H).
Qed.

(* C19 concentration: an accepted delegation leaves the destination strictly below 6.6% of bonded + unbonding stake *)
Lemma delegation_all total ms top url vt amt :
  staking_rules_ok total ms = true -> In top ms ->
  inside (Leaf url (SDelegate true vt amt)) top -> 0 <= vt + amt -> 0 < total + amt ->
  (vt + amt) * 1000 < 66 * (total + amt).
Proof.
  intros Hok Htop Hin H1 H2. apply (staking_ok_inside _ _ _ _ Hok Htop), Z.ltb_lt in Hin.
  apply projected_power_exact; assumption.
Qed.

Lemma redelegation_all total ms top url vt amt :
  staking_rules_ok total ms = true -> In top ms ->
  inside (Leaf url (SRedelegate true vt amt false)) top -> 0 <= vt + amt -> 0 < total ->
  (vt + amt) * 1000 < 66 * total.
Proof.
  intros Hok Htop Hin H1 H2. apply (staking_ok_inside _ _ _ _ Hok Htop), Z.ltb_lt in Hin.
  pose proof (projected_power_exact vt amt total 0 H1 ltac:(lia) Hin). lia.
Qed.
