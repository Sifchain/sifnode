(* C02, one message at a time: the units of a pool and the units of its providers move together. *)
From Coq Require Import ZArith Lia Bool List.
From RecordUpdate Require Import RecordUpdate.
From Sif Require Import Base.Outcome Base.SdkMath Base.Store Base.Bank
  Model.ClpCalc Model.ClpTypes Model.ClpState Model.ClpMsgs Proofs.BankProofs Proofs.ClpInv.
Import ListNotations.
Local Open Scope Z_scope.

Definition lp_units_of (s : clp_state) (a addr : Z) : Z := fopt lp_units (find_lp s a addr).
Definition pool_units_of (s : clp_state) (a : Z) : Z := fopt p_units (get a (cs_pools s)).

Lemma find_lp_set_pool s a p a' addr : find_lp (set_pool s a p) a' addr = find_lp s a' addr.
Proof. reflexivity. Qed.
Lemma find_lp_with_bank s b a' addr : find_lp (with_bank s b) a' addr = find_lp s a' addr.
Proof. reflexivity. Qed.

Lemma lp_units_write s a p b a' addr : lp_units_of (with_bank (set_pool s a p) b) a' addr = lp_units_of s a' addr.
Proof. reflexivity. Qed.
Lemma pool_units_write s a p b : pool_units_of (with_bank (set_pool s a p) b) a = p_units p.
Proof. unfold pool_units_of. rewrite pools_with_bank, pools_set_pool, get_set_same. reflexivity. Qed.
Lemma lp_units_put s a x l a' x' :
  lp_units_of (put_lp s a x l) a' x' = if (a' =? a) && (x' =? x) then lp_units l else lp_units_of s a' x'.
Proof. unfold lp_units_of. rewrite find_lp_put. destruct ((a' =? a) && (x' =? x)); reflexivity. Qed.
Lemma lp_units_del s a x x' : wf (lps_for s a) ->
  lp_units_of (del_lp s a x) a x' = if x' =? x then 0 else lp_units_of s a x'.
Proof.
  intros Hwf. unfold lp_units_of, find_lp. rewrite lps_for_del, Z.eqb_refl. destruct (Z.eqb_spec x' x) as [->|Hne].
  - rewrite wf_get_del_same by exact Hwf. reflexivity.
  - rewrite wf_get_del_other by assumption. reflexivity.
Qed.

(* AddLiquidity: the pool's units grow by exactly what the provider's record grows by; nobody else's units change *)
Lemma add_liquidity_acct s sg a n e s' :
  add_liquidity s sg a n e = Ok s' ->
  (forall p, get a (cs_pools s) = Some p ->
     symmetry_state (p_eb p + p_el p) e (p_nb p + p_nl p) n <> EmptyPool) ->
  pool_units_of s' a - pool_units_of s a = lp_units_of s' a sg - lp_units_of s a sg /\
  forall addr, addr <> sg -> lp_units_of s' a addr = lp_units_of s a addr.
Proof.
  intros H Hne.
  destruct (add_liquidity_spec _ _ _ _ _ _ H) as (p & pu & lpu & st & sw & b2 & -> & _ & Hp & Hcalc & _).
  apply calculate_pool_units_total in Hcalc; [|exact (Hne p Hp)].
  rewrite pool_units_write. unfold pool_units_of. rewrite Hp. cbn [fopt p_units].
  split; [|intros addr Hna]; rewrite lp_units_write, lp_units_put, Z.eqb_refl; cbn [andb].
  - rewrite Z.eqb_refl. unfold lp_units_of. cbn -[Z.add Z.sub]. lia.
  - destruct (Z.eqb_spec addr sg); [contradiction|reflexivity].
Qed.

(* both removal messages: the pool total drops by exactly what the remover's record drops by,
   the burned amount is within the remover's holdings, nobody else's units change *)
Lemma removed_acct s sg a s' :
  wf (lps_for s a) -> removed s sg a s' ->
  pool_units_of s' a - pool_units_of s a = lp_units_of s' a sg - lp_units_of s a sg /\
  0 <= lp_units_of s a sg - lp_units_of s' a sg <= lp_units_of s a sg /\ 0 <= lp_units_of s' a sg /\
  forall addr, addr <> sg -> lp_units_of s' a addr = lp_units_of s a addr.
Proof.
  intros Hwf (pl & l0 & wn & we & lft & caller & b2 & -> & (_ & Hp & Hf) & (Hlft & _) & _).
  assert (Hafter : forall addr, lp_units_of (if lft =? 0 then del_lp s a sg else put_lp s a sg (mkLp lft caller (cs_height s))) a addr
                                = if addr =? sg then lft else lp_units_of s a addr).
  { intros addr. destruct (Z.eqb_spec lft 0) as [->|_]; [apply lp_units_del; exact Hwf|].
    rewrite lp_units_put, Z.eqb_refl. reflexivity. }
  assert (Hs : lp_units_of s a sg = lp_units l0) by (unfold lp_units_of; rewrite Hf; reflexivity).
  rewrite pool_units_write, !lp_units_write, Hafter, Z.eqb_refl, !Hs. unfold pool_units_of. rewrite Hp.
  cbn -[Z.add Z.sub]. split; [lia|]. split; [lia|]. split; [lia|].
  intros addr Hna. rewrite lp_units_write, Hafter. destruct (Z.eqb_spec addr sg); [contradiction|reflexivity].
Qed.
Lemma remove_liquidity_acct s sg a w asym s' :
  wf (lps_for s a) ->
  remove_liquidity s sg a w asym = Ok s' ->
  pool_units_of s' a - pool_units_of s a = lp_units_of s' a sg - lp_units_of s a sg /\
  0 <= lp_units_of s a sg - lp_units_of s' a sg <= lp_units_of s a sg /\ 0 <= lp_units_of s' a sg /\
  forall addr, addr <> sg -> lp_units_of s' a addr = lp_units_of s a addr.
Proof. intros Hwf H. exact (removed_acct _ _ _ _ Hwf (remove_liquidity_spec _ _ _ _ _ _ H)). Qed.
Lemma remove_liquidity_units_acct s sg a u s' :
  wf (lps_for s a) ->
  remove_liquidity_units s sg a u = Ok s' ->
  pool_units_of s' a - pool_units_of s a = lp_units_of s' a sg - lp_units_of s a sg /\
  0 <= lp_units_of s a sg - lp_units_of s' a sg <= lp_units_of s a sg /\ 0 <= lp_units_of s' a sg /\
  forall addr, addr <> sg -> lp_units_of s' a addr = lp_units_of s a addr.
Proof. intros Hwf H. exact (removed_acct _ _ _ _ Hwf (remove_liquidity_units_spec _ _ _ _ _ H)). Qed.

(* F-14: the empty-side branch breaks the unit accounting — a concrete witness.
   Pool with units 1000 whose native side was emptied (LPPD at rate 1); an add of (5, 5) sets the pool
   total to 5 while the old provider still holds 1000. *)
Definition f14_state : clp_state :=
  mkClp (mkBank [(1, [(1, 700)]); (10, [(0, 9000000000000000000000); (1, 9000000000000000000000)])] [])
        [(1, mkPool 0 700 1000 0 0 0 0 0 0)]
        [(1, [(11, mkLp 1000 [] 2)])] [] 0 [] [] 5 (mkCP 0 3000000000000000 [] 0 0 [(0, 7); (1, 7)] [] 0 false [] 0).
Lemma add_to_one_sided_pool_refuted :
  exists s', add_liquidity f14_state 10 1 5 5 = Ok s' /\
             pool_units_of s' 1 = 5 /\ lp_units_of s' 1 10 + lp_units_of s' 1 11 = 1005.
Proof. eexists. split; [vm_compute; reflexivity|]. split; vm_compute; reflexivity. Qed.
