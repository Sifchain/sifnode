(* C20, depth rewards: what one block of the reward path pays out is bounded by the block's share of the period's
   allocation plus what earlier blocks accumulated. *)
From Coq Require Import ZArith Lia Bool List.
From RecordUpdate Require Import RecordUpdate.
From Sif Require Import Base.Outcome Base.SdkMath Base.Store Base.Bank
  Model.ClpTypes Model.ClpRewards Model.ClpState Model.ClpHooks Proofs.PayoutProofs Proofs.ClpInv.
Import ListNotations.
Local Open Scope Z_scope.

(* CollectPoolRewardTuples never hands out more than the block distribution *)
Lemma collect_tuples_le raws : forall remaining,
  0 <= remaining -> Forall (fun r => 0 <= snd r) raws ->
  0 <= snd (collect_tuples raws remaining) <= remaining /\
  Forall (fun t => 0 < snd t) (fst (collect_tuples raws remaining)) /\
  fold_right (fun t acc => snd t + acc) 0 (fst (collect_tuples raws remaining)) = snd (collect_tuples raws remaining).
Proof.
  induction raws as [|[a raw] rest IH]; intros remaining Hr Hall; cbn [collect_tuples].
  - cbn. repeat split; auto; lia.
  - inversion Hall as [|? ? Hraw Hrest]; subst. cbn [snd] in Hraw.
    destruct (Z.eqb_spec remaining 0); [cbn; repeat split; auto; lia|].
    destruct (Z.eqb_spec raw 0); [apply IH; auto|].
    set (d := if remaining <? raw then remaining else raw).
    assert (Hd : 0 < d <= remaining) by (unfold d; destruct (Z.ltb_spec remaining raw); lia).
    specialize (IH (remaining - d) ltac:(lia) Hrest).
    destruct (collect_tuples rest (remaining - d)) as [ts tot]. cbn [fst snd] in *.
    destruct IH as (H1 & H2 & H3). repeat split; try lia.
    + constructor; [cbn; lia|assumption].
    + cbn. lia.
Qed.

Lemma pool_multiplier_nonneg a ms d :
  0 <= d -> Forall (fun m => 0 <= snd m) ms -> 0 <= pool_multiplier a ms d.
Proof.
  intros Hd; induction 1 as [|[x m] ms Hm Hms IH]; cbn; [assumption|].
  destruct (x =? a); [exact Hm|exact IH].
Qed.

Definition period_wf (p : reward_period) : Prop :=
  0 <= rp_default p /\ Forall (fun m => 0 <= snd m) (rp_mults p) /\ 0 <= rp_alloc p.
Definition pools_wf (m : store pool) : Prop := Forall (fun kv => 0 <= p_nb (snd kv)) m.

Lemma raw_distributions_nonneg pools p td bd :
  period_wf p -> pools_wf pools -> 0 < td -> 0 <= bd ->
  Forall (fun r => 0 <= snd r) (raw_distributions pools p td bd).
Proof.
  intros (Hd & Hm & _) Hp Htd Hbd. unfold raw_distributions.
  apply Forall_map. eapply Forall_impl; [|exact Hp]. intros [k pl] Hnb; cbn in *.
  apply calc_pool_distribution_bounds; auto. apply pool_multiplier_nonneg; auto.
Qed.

Lemma map_reset_wf pools :
  pools_wf pools -> pools_wf (map (fun kv : Z * pool => (fst kv, snd kv <| p_rpd := 0 |>)) pools).
Proof. unfold pools_wf. intros H. apply Forall_map. eapply Forall_impl; [|exact H]. intros [k pl]; cbn; auto. Qed.

Lemma reward_tuples_le pools p td bd :
  period_wf p -> pools_wf pools -> 0 < td -> 0 <= bd ->
  let ct := collect_tuples (raw_distributions pools p td bd) bd in
  0 <= snd ct <= bd /\ Forall (fun t => 0 < snd t) (fst ct) /\
  fold_right (fun t acc => snd t + acc) 0 (fst ct) = snd ct.
Proof. intros Hp Hw Htd Hbd. exact (collect_tuples_le _ bd Hbd (raw_distributions_nonneg pools p td bd Hp Hw Htd Hbd)). Qed.

Lemma distribute_minted_le s bd p s' minted burned :
  period_wf p -> pools_wf (cs_pools s) -> 0 <= bd ->
  distribute_depth_rewards s bd p = Ok (s', minted, burned) ->
  0 <= minted <= bd.
Proof.
  intros Hp Hpools Hbd. unfold distribute_depth_rewards.
  destruct (Z.eqb_spec bd 0); [intros [= <- <- <-]; lia|].
  set (td := total_depth (cs_pools s) p).
  set (pools0 := if cs_height s =? rp_start p then _ else _).
  assert (Hp0 : pools_wf pools0).
  { unfold pools0. destruct (cs_height s =? rp_start p); [apply map_reset_wf|]; assumption. }
  destruct (Z.leb_spec td 0); [intros [= <- <- <-]; lia|].
  pose proof (reward_tuples_le pools0 p td bd Hp Hp0 ltac:(lia) Hbd) as (Hle & _ & _). cbv zeta in Hle.
  destruct (collect_tuples (raw_distributions pools0 p td bd) bd) as [tuples to_mint]. cbn [snd] in Hle.
  destruct (rp_distribute p); cbn [negb].
  - match goal with |- context [fold_left ?f tuples ?a] => destruct (fold_left f tuples a) as [pools1 ds] end.
    match goal with |- context [transfer_generic ?b ?o ?d] => destruct (transfer_generic b o d) as [b2 failed] end.
    match goal with |- context [?x <? 0] => destruct (x <? 0) end; [discriminate|].
    match goal with |- context [burn ?b ?a ?d ?x] => destruct (burn b a d x) end; intros [= <- <- <-]; lia.
  - intros [= <- <- <-]. lia.
Qed.

(* CalcBlockDistribution: the share of one block, allocation / length of the period *)
Definition cur_of (p : reward_period) : Z := rp_alloc p / ((rp_end p - rp_start p + 1) mod U64).

Definition norm_period (p0 : reward_period) : reward_period :=
  if rp_mod p0 =? 0 then mkRP (rp_start p0) (rp_end p0) (rp_alloc p0) (rp_mults p0) (rp_default p0) (rp_distribute p0) 1 else p0.

Lemma cur_of_norm p : cur_of (norm_period p) = cur_of p.
Proof. unfold norm_period. destruct (rp_mod p =? 0); reflexivity. Qed.

Lemma period_wf_norm p : period_wf p -> period_wf (norm_period p).
Proof. unfold norm_period. destruct (rp_mod p =? 0); [|auto]. intros (? & ? & ?). repeat split; assumption. Qed.

Lemma cur_of_nonneg p : period_wf p -> 0 <= cur_of p.
Proof.
  intros (_ & _ & Ha). unfold cur_of. apply Z_div_nonneg_nonneg; [exact Ha|].
  apply (Z.mod_pos_bound (rp_end p - rp_start p + 1) U64). reflexivity.
Qed.

Lemma find_period_In h ps p : find_period h ps = Some p -> In p ps /\ rp_start p <= h <= rp_end p.
Proof.
  induction ps as [|q qs IH]; cbn [find_period]; [discriminate|].
  destruct ((rp_start q <=? h) && (h <=? rp_end q)) eqn:E.
  - intros [= <-]. apply andb_prop in E. destruct E as (E1 & E2). apply Z.leb_le in E1, E2. split; [left; reflexivity|lia].
  - intros Hf. destruct (IH Hf). split; [right|]; assumption.
Qed.

Lemma find_period_wf h ps p : Forall period_wf ps -> find_period h ps = Some p -> period_wf p.
Proof. intros Hall Hf. rewrite Forall_forall in Hall. apply Hall, (find_period_In _ _ _ Hf). Qed.

Lemma rewards_run_inv s s' m b :
  rewards_run s = Ok (s', m, b) ->
  match find_period (cs_height s) (cs_reward_periods s) with
  | None => (s', m, b) = (s, 0, 0)
  | Some p0 =>
    if rp_alloc p0 =? 0 then (s', m, b) = (s, 0, 0) else
    let p := norm_period p0 in
    let bd := cs_accu s + cur_of p0 in
    0 <= bd /\
    exists isd, is_distribution_block (cs_height s) (rp_start p) (rp_mod p) = Ok isd /\
      if isd then exists s1, distribute_depth_rewards s bd p = Ok (s1, m, b) /\ s' = s1 <| cs_accu := 0 |>
      else (s', m, b) = (s <| cs_accu := bd |>, 0, 0)
  end.
Proof.
  unfold rewards_run. destruct (find_period (cs_height s) (cs_reward_periods s)) as [p0|]; [|congruence].
  destruct (rp_alloc p0 =? 0); [congruence|]. fold (norm_period p0). cbv zeta. intros H.
  apply bind_ok_inv in H. destruct H as (isd & Hisd & H).
  apply bind_ok_inv in H. destruct H as (cur & Hcur & H).
  apply bind_ok_inv in H. destruct H as (bd & Hbd & H).
  unfold calc_block_distribution in Hcur. fold (cur_of (norm_period p0)) in Hcur. rewrite cur_of_norm in Hcur.
  destruct (_ =? 0); [discriminate|]. injection Hcur as <-.
  apply uint_add_ok in Hbd. destruct Hbd as (-> & Hbd).
  split; [exact Hbd|]. exists isd. split; [exact Hisd|]. destruct isd; [|congruence].
  apply bind_ok_inv in H. destruct H as ([[s1 m1] b1] & Hd & H). injection H as <- <- <-. eauto.
Qed.

Lemma rewards_run_bound s s' minted burned :
  Forall period_wf (cs_reward_periods s) -> pools_wf (cs_pools s) -> 0 <= cs_accu s ->
  rewards_run s = Ok (s', minted, burned) ->
  match find_period (cs_height s) (cs_reward_periods s) with
  | None => minted = 0 /\ cs_accu s' = cs_accu s
  | Some p => 0 <= minted /\ 0 <= cs_accu s' /\ cs_accu s' + minted <= cs_accu s + cur_of p
  end.
Proof.
  intros Hps Hpools Hacc H. apply rewards_run_inv in H.
  destruct (find_period (cs_height s) (cs_reward_periods s)) as [p0|] eqn:Hf; [|injection H as -> -> ->; auto].
  pose proof (find_period_wf _ _ _ Hps Hf) as Hwf0.
  pose proof (cur_of_nonneg p0 Hwf0) as Hcur0.
  destruct (rp_alloc p0 =? 0); [injection H as -> -> ->; lia|].
  destruct H as (Hbd & isd & _ & H). destruct isd.
  - destruct H as (s1 & Hd & ->).
    pose proof (distribute_minted_le s _ _ s1 minted burned (period_wf_norm p0 Hwf0) Hpools Hbd Hd). cbn. lia.
  - injection H as -> -> ->. cbn. lia.
Qed.

Lemma rewards_run_nondist s s' minted burned p :
  find_period (cs_height s) (cs_reward_periods s) = Some p -> rp_alloc p <> 0 ->
  is_distribution_block (cs_height s) (rp_start (norm_period p)) (rp_mod (norm_period p)) = Ok false ->
  rewards_run s = Ok (s', minted, burned) ->
  minted = 0 /\ burned = 0 /\ cs_accu s' = cs_accu s + cur_of p /\ cs_bank s' = cs_bank s /\ cs_pools s' = cs_pools s.
Proof.
  intros Hf Hz Hnd H. apply rewards_run_inv in H. rewrite Hf in H.
  destruct (Z.eqb_spec (rp_alloc p) 0); [contradiction|].
  destruct H as (_ & isd & Hisd & H). rewrite Hnd in Hisd. injection Hisd as <-.
  injection H as -> -> ->. cbn. auto.
Qed.

(* A history of blocks inside one reward period.  Between two blocks anything may happen to the
   state (messages, other hooks) except that nothing else writes the accumulator. *)
Inductive rhist (p : reward_period) : Z -> nat -> Z -> Z -> Prop :=
| rh0 a : 0 <= a -> rhist p a 0 0 a
| rhS a0 n tot s s' m b :
    rhist p a0 n tot (cs_accu s) ->
    find_period (cs_height s) (cs_reward_periods s) = Some p ->
    Forall period_wf (cs_reward_periods s) -> pools_wf (cs_pools s) ->
    rewards_run s = Ok (s', m, b) ->
    rhist p a0 (S n) (tot + m) (cs_accu s').

Lemma rhist_bound p a0 n tot a :
  rhist p a0 n tot a -> 0 <= a /\ 0 <= tot /\ tot + a <= a0 + Z.of_nat n * cur_of p.
Proof.
  induction 1 as [a Ha|a0 n tot s s' m b Hh IH Hf Hps Hpools Hrun].
  - cbn. lia.
  - destruct IH as (Ha & Ht & Hb).
    pose proof (rewards_run_bound s s' m b Hps Hpools Ha Hrun) as H. rewrite Hf in H.
    rewrite Nat2Z.inj_succ. nia.
Qed.

Definition period_len (p : reward_period) : Z := (rp_end p - rp_start p + 1) mod U64.

(* over at most a whole period, starting with an empty accumulator, no more than the allocation is created *)
Lemma rhist_period_bound p n tot a :
  rhist p 0 n tot a -> 0 <= rp_alloc p -> 0 < period_len p -> Z.of_nat n <= period_len p ->
  tot <= rp_alloc p.
Proof.
  intros Hh Ha Hl Hn. apply rhist_bound in Hh. destruct Hh as (H1 & H2 & H3).
  unfold cur_of in H3. fold (period_len p) in H3.
  pose proof (Z.mul_div_le (rp_alloc p) (period_len p) Hl).
  assert (0 <= rp_alloc p / period_len p) by (apply Z.div_pos; lia).
  nia.
Qed.
