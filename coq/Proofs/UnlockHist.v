(* C15 over histories: in every state reached by user messages, blocks and administrator changes of the lock / cancel
   periods, every provider's outstanding unlock requests are non-negative, were made at heights up to the current one,
   and add up to at most the provider's units. *)
From Coq Require Import ZArith Lia Bool List.
From RecordUpdate Require Import RecordUpdate.
From Sif Require Import Base.Outcome Base.SdkMath Base.Store Base.Bank
  Model.ClpCalc Model.ClpTypes Model.ClpState Model.ClpMsgs Proofs.BankProofs Proofs.ClpInv Proofs.UnlockProofs.
Import ListNotations.
Local Open Scope Z_scope.

Definition rec_ok (h : Z) (us : list (Z * Z)) : Prop := nonneg_units us /\ Forall (fun r => fst r <= h) us.
Definition lp_ok (h : Z) (l : lprov) : Prop := rec_ok h (lp_unlocks l) /\ usum (lp_unlocks l) <= lp_units l.
(* Q for the queue of unlock requests: every provider record of every asset is in order (stated over the stored lists, so
   that no key order is needed); QInvH with the height given, QInv at the state's own height *)
Definition QInvH (h : Z) (s : clp_state) : Prop := forall a, Forall (fun kv => lp_ok h (snd kv)) (lps_for s a).
Definition QInv (s : clp_state) : Prop := QInvH (cs_height s) s.

Lemma usum_nonneg us : nonneg_units us -> 0 <= usum us.
Proof. induction 1 as [|r us Hr _ IH]; cbn; [lia|]. fold (usum us). lia. Qed.
Lemma usum_app a b : usum (a ++ b) = usum a + usum b.
Proof. induction a as [|r a IH]; cbn; [reflexivity|]. fold (usum (a ++ b)) (usum a). lia. Qed.
Lemma fold_sum_usum us : forall acc, fold_left (fun acc r => acc + snd r) us acc = acc + usum us.
Proof. induction us as [|r us IH]; intros acc; cbn; [lia|]. fold (usum us). rewrite IH. lia. Qed.
Lemma rec_ok_filter h f us : rec_ok h us -> rec_ok h (filter f us).
Proof.
  intros [H1 H2]. split; [unfold nonneg_units in *|]; apply Forall_forall; intros r Hr; apply filter_In in Hr; destruct Hr as [Hr _];
  [exact (proj1 (Forall_forall _ _) H1 r Hr) | exact (proj1 (Forall_forall _ _) H2 r Hr)].
Qed.
Lemma usum_filter_le f us : nonneg_units us -> usum (filter f us) <= usum us.
Proof.
  induction 1 as [|r us Hr _ IH]; cbn; [lia|]. fold (usum us). destruct (f r); cbn; fold (usum (filter f us)); lia.
Qed.
Lemma heights_of_map h (us us' : list (Z * Z)) : map fst us' = map fst us -> Forall (fun r => fst r <= h) us -> Forall (fun r => fst r <= h) us'.
Proof.
  revert us'. induction us as [|r us IH]; intros [|r' us'] E H; try discriminate; [constructor|].
  cbn in E. injection E as E1 E2. inversion H; subst. constructor; [lia|apply IH; assumption].
Qed.
Lemma forall2_usum_le (us us' : list (Z * Z)) : Forall2 (fun r r' => snd r' <= snd r) us us' -> usum us' <= usum us.
Proof. induction 1 as [|r r' us us' Hr _ IH]; cbn; [lia|]. fold (usum us) (usum us'). lia. Qed.

Lemma use_loop_left_pos any h lock us : forall lft us' lft',
  Forall (fun r => any || (fst r + lock <=? h) = true) us ->
  use_loop any h lock us lft = (us', lft') -> 0 < lft' -> usum us' = 0.
Proof.
  induction us as [|[rh ru] rest IH]; intros lft us' lft' Hm H Hp; cbn [use_loop] in H.
  - injection H as <- <-. reflexivity.
  - inversion Hm as [|? ? Hr Hrest]; subst. cbn [fst] in Hr. rewrite Hr in H.
    destruct (ru <? lft).
    + destruct (use_loop any h lock rest (lft - ru)) as [rest' l'] eqn:E. injection H as <- <-.
      cbn. fold (usum rest'). rewrite (IH _ _ _ Hrest E Hp). reflexivity.
    + injection H as <- <-. lia.
Qed.

(* what is left of the requests after a consumption: never more than the requests minus the amount, floored at 0,
   when the lock period is non-zero or every request has matured *)
Lemma use_unlocked_remaining any h lock us units caller stored :
  nonneg_units us -> 0 <= units ->
  (lock = 0 -> Forall (fun r => any || (fst r + lock <=? h) = true) us) ->
  use_unlocked any h lock us units = Ok (caller, stored) ->
  usum caller <= Z.max 0 (usum us - units).
Proof.
  unfold use_unlocked. intros Hnn Hu Hall H.
  destruct (use_loop any h lock us units) as [us' lft'] eqn:Hl.
  pose proof (use_loop_spec any h lock us units us' lft' Hnn Hu Hl) as (_ & _ & Hle & Hs & _).
  destruct (negb (lock =? 0) && negb (lft' =? 0)) eqn:E; [discriminate|]. injection H as <- <-.
  destruct (Z.eqb_spec lft' 0) as [->|Hne]; [lia|].
  destruct (Z.eqb_spec lock 0) as [Hl0|Hl0]; [|cbn in E; discriminate].
  rewrite (use_loop_left_pos any h lock us units us' lft' (Hall Hl0) Hl) by lia. lia.
Qed.

Lemma use_unlocked_rec_ok any h lock us units caller stored :
  rec_ok h us -> 0 <= units -> use_unlocked any h lock us units = Ok (caller, stored) ->
  rec_ok h caller /\ rec_ok h stored /\ usum stored = usum caller /\ usum caller <= usum us.
Proof.
  intros [Hnn Hh] Hu H. pose proof (use_unlocked_spec any h lock us units caller stored Hnn Hu H) as (E1 & N1 & _ & _ & F2).
  unfold use_unlocked in H. destruct (use_loop any h lock us units) as [us' lft'] eqn:Hl.
  pose proof (use_loop_spec any h lock us units us' lft' Hnn Hu Hl) as (Hmap & _).
  destruct (negb (lock =? 0) && negb (lft' =? 0)); [discriminate|]. injection H as <- <-.
  assert (R : rec_ok h us') by (split; [exact N1|eapply heights_of_map; eassumption]).
  split; [exact R|]. split; [apply rec_ok_filter; exact R|]. split; [exact E1|].
  apply forall2_usum_le. clear - F2. induction F2 as [|r r' a b [Hle _] _ IH]; constructor; assumption.
Qed.

Lemma matured_lock0 any h (us : list (Z * Z)) : Forall (fun r => fst r <= h) us -> Forall (fun r => any || (fst r + 0 <=? h) = true) us.
Proof. intros H. eapply Forall_impl; [|exact H]. intros r Hr. cbn beta in *. destruct (Z.leb_spec (fst r + 0) h); [apply orb_true_r|lia]. Qed.

Lemma lp_ok_last h l x : lp_ok h l -> lp_ok h (l <| lp_last := x |>).
Proof. intros H. exact H. Qed.

Lemma QInvH_put h s a addr l : QInvH h s -> lp_ok h l -> QInvH h (put_lp s a addr l).
Proof.
  intros HI Hl a'. rewrite lps_for_put. destruct (a' =? a); [|apply HI]. apply Forall_set; [exact Hl|apply HI].
Qed.
Lemma QInvH_del_lp h s a addr : QInvH h s -> QInvH h (del_lp s a addr).
Proof. intros HI a'. rewrite lps_for_del. destruct (a' =? a); [|apply HI]. apply Forall_del. apply HI. Qed.
Lemma QInvH_same_lps h s s' : cs_lps s' = cs_lps s -> QInvH h s -> QInvH h s'.
Proof. intros E HI a. unfold lps_for. rewrite E. apply HI. Qed.
Lemma QInvH_find h s a addr l : QInvH h s -> find_lp s a addr = Some l -> lp_ok h l.
Proof. intros HI Hf. apply get_in in Hf. exact (proj1 (Forall_forall _ _) (HI a) _ Hf). Qed.
Lemma QInvH_del_lps h a ls : forall s, QInvH h s -> QInvH h (del_lps a ls s).
Proof. induction ls as [|kl ls IH]; intros s HI; [exact HI|]. exact (IH _ (QInvH_del_lp h s a (fst kl) HI)). Qed.

Lemma lp_ok_pruned h l0 hh lock cancel :
  lp_ok h l0 -> rec_ok h (prune_unlocks hh lock cancel (lp_unlocks l0)) /\ usum (prune_unlocks hh lock cancel (lp_unlocks l0)) <= lp_units l0.
Proof.
  intros [Hr Hs]. split; [apply rec_ok_filter; exact Hr|]. eapply Z.le_trans; [|exact Hs]. exact (usum_filter_le _ _ (proj1 Hr)).
Qed.

(* P for pools: their units are not negative *)
Definition PInv (s : clp_state) : Prop := Forall (fun kv : Z * pool => 0 <= p_units (snd kv)) (cs_pools s).
Lemma PInv_find s a p : PInv s -> get a (cs_pools s) = Some p -> 0 <= p_units p.
Proof. intros HP Hg. apply get_in in Hg. exact (proj1 (Forall_forall _ _) HP _ Hg). Qed.
Lemma PInv_set_pool s a p : PInv s -> 0 <= p_units p -> PInv (set_pool s a p).
Proof. intros HP Hp. unfold PInv. rewrite pools_set_pool. apply Forall_set; [exact Hp|exact HP]. Qed.
Lemma PInv_same_pools s s' : cs_pools s' = cs_pools s -> PInv s -> PInv s'.
Proof. unfold PInv. intros ->. auto. Qed.

Lemma PInv_write s s' a p : PInv s -> cs_pools s' = set a p (cs_pools s) -> 0 <= p_units p -> PInv s'.
Proof. unfold PInv. intros HP -> Hp. apply Forall_set; [exact Hp|exact HP]. Qed.
Lemma PInv_set_lp s a addr l : PInv s -> PInv (set_lp s a addr l).
Proof. intros H. exact H. Qed.
(* a swap leg lives on the pool store: PInv s is this fact about cs_pools s *)
Lemma leg_PInv tr a z pm f m res m' :
  leg tr a z pm f m res m' -> Forall (fun kv : Z * pool => 0 <= p_units (snd kv)) m ->
  Forall (fun kv : Z * pool => 0 <= p_units (snd kv)) m'.
Proof.
  intros (p & fee & sp & Hg & _ & ->) HP. apply Forall_set; [|exact HP].
  apply get_in in Hg. exact (proj1 (Forall_forall _ _) HP _ Hg).
Qed.

(* the amounts of a message are unsigned integers in the code *)
Definition msg_unsigned (m : clp_msg) : Prop :=
  match m with
  | MAddLiquidity _ _ n e => 0 <= n /\ 0 <= e
  | MUnlock _ _ u | MCancelUnlock _ _ u => 0 <= u
  | _ => True
  end.
(* what C15 keeps along a history: both *)
Definition CInv (s : clp_state) : Prop := QInv s /\ PInv s.

Lemma handle_height_unused : True.
Proof. trivial. Qed.

(* a removal: after pruning, the burned units are taken out of the requests; what is left of the requests fits in the
   units that are left *)
Lemma removed_CInvH s sg a s' : CInv s -> removed s sg a s' -> QInvH (cs_height s) s' /\ PInv s'.
Proof.
  intros [HI HP] (pl & l0 & wn & we & lft & caller & b2 & -> & (_ & _ & Hf) & (Hlft & stored & Huse) & (Hpu & _) & _).
  split; [|eapply (PInv_write s _ a _ HP); [destruct (lft =? 0); reflexivity|exact Hpu]].
  apply (QInvH_same_lps _ (if lft =? 0 then del_lp s a sg else put_lp s a sg (mkLp lft caller (cs_height s)))); [reflexivity|].
  destruct (lft =? 0); [apply QInvH_del_lp; exact HI|apply QInvH_put; [exact HI|]].
  destruct (lp_ok_pruned _ _ (cs_height s) (cp_lock (cs_params s)) (cp_cancel (cs_params s)) (QInvH_find _ _ _ _ _ HI Hf)) as [Hr Hs].
  assert (Hb0 : 0 <= lp_units l0 - lft) by lia.
  pose proof (use_unlocked_rec_ok _ _ _ _ _ _ _ Hr Hb0 Huse) as (Rc & _ & _ & _).
  set (us := prune_unlocks _ _ _ _) in *.
  assert (Hall : cp_lock (cs_params s) = 0 -> Forall (fun r => false || (fst r + cp_lock (cs_params s) <=? cs_height s) = true) us)
    by (intros ->; apply matured_lock0; exact (proj2 Hr)).
  pose proof (use_unlocked_remaining _ _ _ _ _ _ _ (proj1 Hr) Hb0 Hall Huse) as Hrem.
  split; [exact Rc|cbn [lp_units lp_unlocks]; lia].
Qed.

Lemma handle_CInvH s m s' : CInv s -> msg_unsigned m -> handle s m = Ok s' -> QInvH (cs_height s) s' /\ PInv s'.
Proof.
  intros [HI HP] Hm H.
  destruct m as [sg a n e|sg a n e|sg a w asym|sg a u|sg sa ra amt mn|sg a u|sg a u|sg a|sg cs]; cbn [handle msg_unsigned] in *.
  - destruct (create_pool_spec _ _ _ _ _ _ H) as (b2 & -> & _ & _ & Hthr & _). unfold POOL_THRESHOLD in Hthr. split.
    + apply (QInvH_same_lps _ (put_lp s a sg (mkLp n [] (cs_height s)))); [reflexivity|]. apply QInvH_put; [exact HI|].
      split; [split; constructor|cbn; lia].
    + eapply (PInv_write s _ a _ HP); [reflexivity|cbn; lia].
  - destruct Hm as [Hn He].
    destruct (add_liquidity_spec _ _ _ _ _ _ H) as (p & pu & lpu & st & sw & b2 & -> & _ & Hp & Hcalc & (Hnd & Hed & _) & _).
    apply calculate_pool_units_nonneg in Hcalc; [|exact (PInv_find _ _ _ HP Hp)|assumption..]. destruct Hcalc as [Hpu Hlpu]. split.
    + apply (QInvH_same_lps _ (put_lp s a sg (lp_added s a sg lpu))); [reflexivity|]. apply QInvH_put; [exact HI|].
      unfold lp_ok, lp_added. cbn [lp_units lp_unlocks]. destruct (find_lp s a sg) as [l|] eqn:Hf; cbn [fopt].
      * destruct (QInvH_find _ _ _ _ _ HI Hf) as [Hr Hs]. split; [exact Hr|lia].
      * split; [split; constructor|cbn; lia].
    + eapply (PInv_write s _ a _ HP); [reflexivity|exact Hpu].
  - exact (removed_CInvH _ _ _ _ (conj HI HP) (remove_liquidity_spec _ _ _ _ _ _ H)).
  - exact (removed_CInvH _ _ _ _ (conj HI HP) (remove_liquidity_units_spec _ _ _ _ _ H)).
  - bind_inv H as [s1 emit] Hswap. injection H as <-.
    destruct (swap_inv _ _ _ _ _ _ _ _ Hswap) as (b1 & b2 & mid & pools1 & (_ & Hlps & _) & (Hleg1 & Hleg2) & _).
    split; [exact (QInvH_same_lps _ s _ Hlps HI)|]. apply (leg_PInv _ _ _ _ _ _ _ _ Hleg2).
    destruct (negb (sa =? ROWAN) && negb (ra =? ROWAN)); [exact (leg_PInv _ _ _ _ _ _ _ _ Hleg1 HP)|].
    destruct Hleg1 as [_ ->]. exact HP.
  - destruct (unlock_spec _ _ _ _ _ H) as (l0 & l' & -> & Hf & Hu & Hle & Hul). split; [|exact HP]. apply QInvH_put; [exact HI|].
    destruct (lp_ok_pruned _ _ (cs_height s) (cp_lock (cs_params s)) (cp_cancel (cs_params s)) (QInvH_find _ _ _ _ _ HI Hf)) as [[Hnn Hhs] Hs].
    rewrite fold_sum_usum in Hle. unfold lp_ok, rec_ok, nonneg_units. rewrite Hul, Hu, usum_app. cbn [usum fold_right snd].
    split; [split; apply Forall_app; (split; [assumption|constructor; [cbn; lia|constructor]])|lia].
  - destruct (cancel_unlock_spec _ _ _ _ _ H) as (l0 & l' & -> & Hf & Hu & caller & Huse). split; [|exact HP]. apply QInvH_put; [exact HI|].
    destruct (lp_ok_pruned _ _ (cs_height s) (cp_lock (cs_params s)) (cp_cancel (cs_params s)) (QInvH_find _ _ _ _ _ HI Hf)) as [Hr Hs].
    pose proof (use_unlocked_rec_ok _ _ _ _ _ _ _ Hr Hm Huse) as (_ & Rs & Es & Ele). split; [exact Rs|lia].
  - destruct (decommission_spec _ _ _ _ H) as (pl & b' & -> & _). split; [|exact (Forall_del _ a (cs_pools s) HP)].
    apply (QInvH_same_lps _ (del_lps a (lps_for s a) s)); [reflexivity|]. apply QInvH_del_lps. exact HI.
  - destruct (add_to_bucket_spec _ _ _ _ H) as (b' & _ & ->). split; [exact (QInvH_same_lps _ s _ eq_refl HI)|exact HP].
Qed.

Lemma removed_height s sg a s' : removed s sg a s' -> cs_height s' = cs_height s.
Proof.
  intros (pl & l0 & wn & we & lft & caller & b2 & -> & _). destruct (lft =? 0); reflexivity.
Qed.
Lemma handle_height s m s' : handle s m = Ok s' -> cs_height s' = cs_height s.
Proof.
  intros H. destruct m as [sg a n e|sg a n e|sg a w asym|sg a u|sg sa ra amt mn|sg a u|sg a u|sg a|sg cs]; cbn [handle] in H.
  - destruct (create_pool_spec _ _ _ _ _ _ H) as (b2 & -> & _). reflexivity.
  - destruct (add_liquidity_spec _ _ _ _ _ _ H) as (p & pu & lpu & st & sw & b2 & -> & _). reflexivity.
  - exact (removed_height _ _ _ _ (remove_liquidity_spec _ _ _ _ _ _ H)).
  - exact (removed_height _ _ _ _ (remove_liquidity_units_spec _ _ _ _ _ H)).
  - bind_inv H as [s1 emit] Hswap. injection H as <-. 
    destruct (swap_inv _ _ _ _ _ _ _ _ Hswap) as (b1 & b2 & mid & pools1 & (_ & _ & _ & _ & Hh) & _). exact Hh.
  - destruct (unlock_spec _ _ _ _ _ H) as (l0 & l' & -> & _). reflexivity.
  - destruct (cancel_unlock_spec _ _ _ _ _ H) as (l0 & l' & -> & _). reflexivity.
  - destruct (decommission_spec _ _ _ _ H) as (pl & b' & -> & _). reflexivity.
  - destruct (add_to_bucket_spec _ _ _ _ H) as (b' & _ & ->). reflexivity.
Qed.

Lemma deliver_CInv s fee m : CInv s -> msg_unsigned m -> CInv (fst (deliver s fee m)).
Proof.
  intros HC Hm. apply deliver_cases; cbv zeta; [exact HC|]. intros s' H.
  destruct (handle_CInvH (with_bank s _) _ _ HC Hm H) as [A B]. split; [|exact B].
  unfold QInv. rewrite (handle_height _ _ _ H). exact A.
Qed.

Inductive hist_step :=
| HTx (fee : Z) (m : clp_msg)            (* a delivered transaction (fee kept, writes kept only on success) *)
| HNextBlock                             (* the height advances *)
| HSetParams (ps : clp_params)           (* any change of parameters, the lock and cancel periods among them *)
| HGrow (a addr du : Z).                 (* a provider's units grow (re-invested rewards) *)
Definition grow (s : clp_state) (a addr du : Z) : clp_state :=
  match find_lp s a addr with
  | Some l => put_lp s a addr (l <| lp_units := lp_units l + du |>)
  | None => s
  end.
Definition hstep (s : clp_state) (st : hist_step) : clp_state :=
  match st with
  | HTx fee m => fst (deliver s fee m)
  | HNextBlock => s <| cs_height := cs_height s + 1 |>
  | HSetParams ps => s <| cs_params := ps |>
  | HGrow a addr du => grow s a addr du
  end.
Definition step_ok (st : hist_step) : Prop :=
  match st with HTx _ m => msg_unsigned m | HGrow _ _ du => 0 <= du | _ => True end.

Lemma QInvH_mono h h' s : h <= h' -> QInvH h s -> QInvH h' s.
Proof.
  intros Hle HI a. eapply Forall_impl; [|apply HI]. intros kv [[Hn Hh] Hs]. split; [split; [exact Hn|]|exact Hs].
  eapply Forall_impl; [|exact Hh]. intros r Hr. cbn beta in *. lia.
Qed.

Lemma hstep_CInv s st : CInv s -> step_ok st -> CInv (hstep s st).
Proof.
  intros [HI HP] Hok. destruct st; cbn [hstep step_ok] in *.
  - apply deliver_CInv; [split; assumption|exact Hok].
  - split; [|exact HP]. unfold QInv. cbn. apply (QInvH_mono (cs_height s)); [lia|]. intros a. apply HI.
  - split; [|exact HP]. intros a. apply HI.
  - unfold grow. destruct (find_lp s a addr) as [l|] eqn:Hf; [|split; assumption].
    split; [|exact HP]. unfold QInv. apply QInvH_put; [exact HI|].
    destruct (QInvH_find _ _ _ _ _ HI Hf) as [Hr Hs]. split; [exact Hr|]. cbn -[usum]. lia.
Qed.

Theorem history_CInv : forall steps s, CInv s -> Forall step_ok steps -> CInv (fold_left hstep steps s).
Proof.
  induction steps as [|st rest IH]; intros s HI Hok; cbn [fold_left]; [exact HI|].
  inversion Hok; subst. apply IH; [apply hstep_CInv; assumption|assumption].
Qed.

Corollary history_outstanding_le_units steps s a addr l :
  CInv s -> Forall step_ok steps -> find_lp (fold_left hstep steps s) a addr = Some l ->
  0 <= usum (lp_unlocks l) <= lp_units l /\ nonneg_units (lp_unlocks l).
Proof.
  intros HI Hok Hf. destruct (history_CInv steps s HI Hok) as [HQ _].
  destruct (QInvH_find _ _ _ _ _ HQ Hf) as [[Hn _] Hs]. pose proof (usum_nonneg _ Hn). split; [lia|exact Hn].
Qed.

Lemma CInv_initial s : cs_lps s = [] -> cs_pools s = [] -> CInv s.
Proof. intros Hl Hp. split; [intros a; unfold lps_for; rewrite Hl; constructor|unfold PInv; rewrite Hp; constructor]. Qed.
