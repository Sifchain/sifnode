(* C16: the relayer's translations are faithful. *)
From Coq Require Import ZArith Lia Bool List.
From Sif Require Import Model.Relayer.
Import ListNotations.
Local Open Scope Z_scope.

Lemma burn_symbol_spec v s : burn_symbol v = Some s <-> v = PREFIX_C :: s.
Proof.
  unfold burn_symbol. destruct v as [|c rest]; [split; discriminate|].
  destruct (Z.eqb_spec c PREFIX_C) as [->|Hne]; split.
  - intros [= ->]. reflexivity.
  - intros [= ->]. reflexivity.
  - discriminate.
  - intros [= -> ->]. contradiction.
Qed.

(* the value of attribute [kv] is acceptable *)
Definition attr_ok (burn : bool) (kv : Z * str) : bool :=
  let '(k, v) := kv in
  if k =? 2 then match parse_dec v with Some _ => true | None => false end
  else if k =? 3 then match parse_address v with Some _ => true | None => false end
  else if k =? 4 then (if burn then match burn_symbol v with Some _ => true | None => false end else true)
  else if k =? 5 then match parse_dec v with Some _ => true | None => false end
  else true.

(* a step that succeeds sets the field of its key to the parsed value and keeps the others *)
Lemma step_inv burn t a k v a' : step burn t a (k, v) = Some a' ->
  attr_ok burn (k, v) = true /\
  a_sender a' = (if k =? 1 then Some v else a_sender a) /\
  a_seq a' = (if k =? 2 then parse_dec v else a_seq a) /\
  a_recv a' = (if k =? 3 then parse_address v else a_recv a) /\
  a_sym a' = (if k =? 4 then (if burn then burn_symbol v else Some (sif_to_eth t v)) else a_sym a) /\
  a_amt a' = (if k =? 5 then parse_dec v else a_amt a).
Proof.
  unfold step, attr_ok.
  destruct (Z.eqb_spec k 1) as [->|]; [intros [= <-]; cbn; auto 6|].
  destruct (Z.eqb_spec k 2) as [->|]; [destruct (parse_dec v); [|discriminate]; intros [= <-]; cbn; auto 6|].
  destruct (Z.eqb_spec k 3) as [->|]; [destruct (parse_address v); [|discriminate]; intros [= <-]; cbn; auto 6|].
  destruct (Z.eqb_spec k 4) as [->|].
  { destruct burn; [destruct (burn_symbol v); [|discriminate]|]; intros [= <-]; cbn; auto 6. }
  destruct (Z.eqb_spec k 5) as [->|]; [destruct (parse_dec v); [|discriminate]; intros [= <-]; cbn; auto 6|].
  intros [= <-]. auto 6.
Qed.

Lemma step_ok burn t a kv : (exists a', step burn t a kv = Some a') <-> attr_ok burn kv = true.
Proof.
  destruct kv as [k v]. split; [intros [a' H]; apply (step_inv _ _ _ _ _ _ H)|].
  unfold step, attr_ok.
  destruct (k =? 1); [eauto|]. destruct (k =? 2); [destruct (parse_dec v); [eauto|discriminate]|].
  destruct (k =? 3); [destruct (parse_address v); [eauto|discriminate]|].
  destruct (k =? 4); [destruct burn; [destruct (burn_symbol v); [eauto|discriminate]|eauto]|].
  destruct (k =? 5); [destruct (parse_dec v); [eauto|discriminate]|eauto].
Qed.

Lemma run_attrs_ok burn t l : forall a, (exists a', run_attrs burn t a l = Some a') <-> forallb (attr_ok burn) l = true.
Proof.
  induction l as [|kv l IH]; intros a; cbn [run_attrs forallb]; [split; eauto|].
  rewrite andb_true_iff. split.
  - intros [a' H]. destruct (step burn t a kv) as [a1|] eqn:E; [|discriminate].
    split; [apply (step_ok burn t a kv); eauto | apply (IH a1); eauto].
  - intros [H1 H2]. apply (step_ok burn t a kv) in H1 as [a1 E]. rewrite E. apply IH; exact H2.
Qed.

Definition has_key (k : Z) (l : list (Z * str)) : bool := existsb (fun kv => fst kv =? k) l.

(* the value of the last attribute with key k *)
Fixpoint last_val (k : Z) (l : list (Z * str)) : option str :=
  match l with
  | [] => None
  | (k', v) :: r => match last_val k r with Some w => Some w | None => if k' =? k then Some v else None end
  end.

Lemma last_val_In k l v : last_val k l = Some v -> In (k, v) l.
Proof.
  induction l as [|[k' w] r IH]; cbn [last_val]; [discriminate|].
  destruct (last_val k r); [intros [= <-]; right; apply IH; reflexivity|].
  destruct (Z.eqb_spec k' k) as [->|]; [intros [= <-]; left; reflexivity|discriminate].
Qed.

Lemma has_key_last k l : has_key k l = match last_val k l with Some _ => true | None => false end.
Proof.
  induction l as [|[k' w] r IH]; [reflexivity|]. cbn [has_key existsb last_val fst]. fold (has_key k r). rewrite IH.
  destruct (last_val k r); [apply orb_true_r|]. destruct (k' =? k); reflexivity.
Qed.

(* a field after the run: the parsed value of the last attribute with its key, else what it was *)
Definition pick {A} (f : str -> option A) (k : Z) (l : list (Z * str)) (d : option A) : option A :=
  match last_val k l with Some v => f v | None => d end.

Lemma pick_cons {A} (f : str -> option A) k k' v r d :
  pick f k ((k', v) :: r) d = pick f k r (if k' =? k then f v else d).
Proof. unfold pick. cbn [last_val]. destruct (last_val k r); [reflexivity|]. destruct (k' =? k); reflexivity. Qed.

Lemma pick_some {A} (f : str -> option A) k l x : pick f k l None = Some x -> exists v, In (k, v) l /\ f v = Some x.
Proof. unfold pick. destruct (last_val k l) as [v|] eqn:E; [|discriminate]. intros H. exists v. split; [apply last_val_In; exact E|exact H]. Qed.

Definition sym_of (burn : bool) (t : sym_table) (v : str) : option str := if burn then burn_symbol v else Some (sif_to_eth t v).

Lemma run_attrs_closed burn t l : forall a a', run_attrs burn t a l = Some a' ->
  a_sender a' = pick Some 1 l (a_sender a) /\
  a_seq a' = pick parse_dec 2 l (a_seq a) /\
  a_recv a' = pick parse_address 3 l (a_recv a) /\
  a_sym a' = pick (sym_of burn t) 4 l (a_sym a) /\
  a_amt a' = pick parse_dec 5 l (a_amt a).
Proof.
  induction l as [|[k v] r IH]; intros a a' H; cbn [run_attrs] in H; [injection H as <-; auto 6|].
  destruct (step burn t a (k, v)) as [a1|] eqn:E; [|discriminate].
  destruct (step_inv _ _ _ _ _ _ E) as (_ & S1 & S2 & S3 & S4 & S5).
  rewrite !pick_cons. unfold sym_of at 2. rewrite <- S1, <- S2, <- S3, <- S4, <- S5. exact (IH a1 a' H).
Qed.

(* soundness: every field of a translated message is the (parsed) value of an attribute of the event with the
   right key - so no required attribute can be missing, and a burn symbol is the attribute's value with exactly the
   leading prefix removed *)
Theorem burn_lock_sound burn t attrs m :
  burn_lock_to_msg burn t attrs = Some m ->
  In (1, cm_sender m) attrs /\
  (exists v n, In (2, v) attrs /\ parse_dec v = Some n /\ cm_sequence m = Some n) /\
  (exists v, In (3, v) attrs /\ parse_address v = Some (cm_receiver m)) /\
  (exists v, In (4, v) attrs /\ (if burn then v = PREFIX_C :: cm_symbol m else cm_symbol m = sif_to_eth t v)) /\
  (exists v n, In (5, v) attrs /\ parse_dec v = Some n /\ cm_amount m = Some n).
Proof.
  unfold burn_lock_to_msg. destruct (run_attrs burn t acc0 attrs) as [a|] eqn:E; [|discriminate].
  destruct (run_attrs_closed _ _ _ _ _ E) as (C1 & C2 & C3 & C4 & C5). cbn [acc0 a_sender a_seq a_recv a_sym a_amt] in *.
  unfold finish. rewrite C1, C2, C3, C4, C5.
  destruct (pick Some 1 attrs None) as [s|] eqn:P1; [|discriminate].
  destruct (pick parse_dec 2 attrs None) as [q|] eqn:P2; [|discriminate].
  destruct (pick parse_address 3 attrs None) as [r|] eqn:P3; [|discriminate].
  destruct (pick (sym_of burn t) 4 attrs None) as [y|] eqn:P4; [|discriminate].
  destruct (pick parse_dec 5 attrs None) as [am|] eqn:P5; [|discriminate]. intros [= <-]. cbn.
  apply pick_some in P1, P2, P3, P4, P5.
  destruct P1 as (v1 & I1 & Q1), P2 as (v2 & I2 & Q2), P3 as (v3 & I3 & Q3), P4 as (v4 & I4 & Q4), P5 as (v5 & I5 & Q5).
  injection Q1 as ->.
  split; [exact I1|]. split; [eauto|]. split; [eauto|]. split; [|eauto].
  exists v4. split; [exact I4|]. unfold sym_of in Q4. destruct burn; [apply burn_symbol_spec; exact Q4|congruence].
Qed.

(* acceptance: exactly the events that carry all five attributes and only acceptable values - in any order *)
Theorem burn_lock_accepts_iff burn t attrs :
  (exists m, burn_lock_to_msg burn t attrs = Some m) <->
  forallb (attr_ok burn) attrs = true /\ forallb (fun k => has_key k attrs) [1; 2; 3; 4; 5] = true.
Proof.
  unfold burn_lock_to_msg. cbn [forallb]. rewrite !has_key_last. split.
  - intros [m H]. destruct (run_attrs burn t acc0 attrs) as [a|] eqn:E; [|discriminate].
    split; [apply (run_attrs_ok burn t attrs acc0); eauto|].
    destruct (run_attrs_closed _ _ _ _ _ E) as (C1 & C2 & C3 & C4 & C5). unfold pick in *. cbn [acc0 a_sender a_seq a_recv a_sym a_amt] in *.
    unfold finish in H. rewrite C1, C2, C3, C4, C5 in H.
    destruct (last_val 1 attrs); [|discriminate H]. destruct (last_val 2 attrs); [|discriminate H].
    destruct (last_val 3 attrs); [|destruct (parse_dec _); discriminate H].
    destruct (last_val 4 attrs); [|destruct (parse_dec _), (parse_address _); discriminate H].
    destruct (last_val 5 attrs); [reflexivity|]. destruct (parse_dec _), (parse_address _), (sym_of _ _ _); discriminate H.
  - intros [Hok Hk]. pose proof Hok as Hall. rewrite forallb_forall in Hall.
    apply (run_attrs_ok burn t attrs acc0) in Hok as [a E]. rewrite E.
    destruct (run_attrs_closed _ _ _ _ _ E) as (C1 & C2 & C3 & C4 & C5). unfold pick in *.
    destruct (last_val 1 attrs) as [v1|]; [|discriminate]. destruct (last_val 2 attrs) as [v2|] eqn:E2; [|discriminate].
    destruct (last_val 3 attrs) as [v3|] eqn:E3; [|discriminate]. destruct (last_val 4 attrs) as [v4|] eqn:E4; [|discriminate].
    destruct (last_val 5 attrs) as [v5|] eqn:E5; [|discriminate].
    apply last_val_In, Hall in E2, E3, E4, E5. cbn in E2, E3, E4, E5. unfold finish, sym_of in *.
    rewrite C1, C2, C3, C4, C5.
    destruct (parse_dec v2); [|discriminate]. destruct (parse_address v3); [|discriminate]. destruct (parse_dec v5); [|discriminate].
    destruct burn; [destruct (burn_symbol v4); [|discriminate]|]; eauto.
Qed.

Lemma wrap64_small z : 0 <= z < 2 ^ 63 -> wrap64 z = z.
Proof.
  intros H. unfold wrap64. rewrite Z.mod_small by lia. destruct (Z.ltb_spec z (2 ^ 63)); lia.
Qed.

Theorem event_to_claim_faithful t e c :
  event_to_claim t e = Some c ->
  ev_recipient_valid e = true /\
  cl_sender c = ev_from e /\ cl_token c = ev_token e /\ cl_amount c = ev_value e /\ cl_burn c = ev_burn e /\
  cl_symbol c = (if ev_burn e then eth_to_sif t (ev_symbol e) else to_lower (ev_symbol e)) /\
  (0 <= ev_chain e < 2 ^ 63 -> cl_chain c = ev_chain e) /\ (0 <= ev_nonce e < 2 ^ 63 -> cl_nonce c = ev_nonce e).
Proof.
  unfold event_to_claim. destruct (ev_recipient_valid e); cbn [negb]; [|discriminate].
  destruct (negb (ev_burn e) && _ && _); [discriminate|]. intros [= <-]. cbn.
  repeat split; auto; intros; apply wrap64_small; assumption.
Qed.

(* two events of one chain with different (nonce, sender) never get the same claim identity *)
Section Identity.
  Variable fmt : Z -> str.             (* strconv.FormatInt(_, 10) *)
  Variable hex : list Z -> str.        (* the "0x..." rendering of an address *)
  Hypothesis fmt_inj : forall a b, fmt a = fmt b -> a = b.
  Hypothesis hex_inj : forall a b, hex a = hex b -> a = b.
  Hypothesis hex_len : forall a, length (hex a) = 42%nat.

  Lemma app_inv_len {A} (a b c d : list A) : length b = length d -> a ++ b = c ++ d -> a = c /\ b = d.
  Proof.
    intros Hl H. assert (length a = length c).
    { apply (f_equal (@length A)) in H. rewrite !app_length in H. lia. }
    revert c H H0. induction a as [|x a IH]; intros [|y c] H Hlen; try discriminate; [auto|].
    injection H as -> H. injection Hlen as Hlen. destruct (IH c H Hlen) as [-> ->]. auto.
  Qed.

  Theorem oracle_id_injective c1 c2 :
    cl_chain c1 = cl_chain c2 -> oracle_id fmt hex c1 = oracle_id fmt hex c2 ->
    cl_nonce c1 = cl_nonce c2 /\ cl_sender c1 = cl_sender c2.
  Proof.
    unfold oracle_id. intros Hc H. rewrite Hc in H. apply app_inv_head in H.
    apply app_inv_len in H; [|rewrite !hex_len; reflexivity]. destruct H as [H1 H2]. auto.
  Qed.
End Identity.

(* across chain ids the concatenation collides: finding F-8, with a decimal printer for small numbers *)
Definition dec2 (z : Z) : str := if z <? 10 then [48 + z] else [48 + z / 10; 48 + z mod 10].
Lemma oracle_id_collision hex s :
  oracle_id dec2 hex (mkCl 1 23 s [] [] 0 false) = oracle_id dec2 hex (mkCl 12 3 s [] [] 0 false).
Proof. reflexivity. Qed.
