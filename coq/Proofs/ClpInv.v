(* C01: the clp module account holds exactly what pools, custody and buckets record (+ decommission
   remainder).  gap s d = balance - recorded is preserved by every message, and only grows
   (by the truncation remainder) when a pool is decommissioned. *)
From Coq Require Import ZArith Lia Bool List.
From RecordUpdate Require Import RecordUpdate.
From Sif Require Import Base.Outcome Base.SdkMath Base.Store Base.Bank
  Model.ClpCalc Model.ClpTypes Model.ClpState Model.ClpMsgs Proofs.BankProofs.
From Sif Require Export Proofs.ClpSpecs.
Import ListNotations.
Local Open Scope Z_scope.

Definition f_native (p : pool) : Z := p_nb p + p_nc p.
Definition f_ext (p : pool) : Z := p_eb p + p_ec p.
Definition rec_native (s : clp_state) : Z := sumf f_native (cs_pools s).
Definition rec_ext (s : clp_state) (d : Z) : Z := fopt f_ext (get d (cs_pools s)).
Definition recorded (s : clp_state) (d : Z) : Z :=
  (if d =? ROWAN then rec_native s else 0) + rec_ext s d + getz d (cs_buckets s).
Definition gap (s : clp_state) (d : Z) : Z := bal (cs_bank s) CLP_MODULE d - recorded s d.

Definition pools_rec (m : store pool) (d : Z) : Z := (if d =? ROWAN then sumf f_native m else 0) + fopt f_ext (get d m).
Lemma recorded_eq s d : recorded s d = pools_rec (cs_pools s) d + getz d (cs_buckets s).
Proof. reflexivity. Qed.
Lemma pools_rec_set a p m d :
  pools_rec (set a p m) d = pools_rec m d
  + (if d =? ROWAN then f_native p - fopt f_native (get a m) else 0)
  + (if d =? a then f_ext p - fopt f_ext (get a m) else 0).
Proof.
  unfold pools_rec. rewrite sumf_set, get_set.
  destruct (d =? ROWAN); destruct (Z.eqb_spec d a) as [->|]; cbn [fopt]; lia.
Qed.
Lemma pools_rec_del a m d : wf m ->
  pools_rec (del a m) d = pools_rec m d
  - (if d =? ROWAN then fopt f_native (get a m) else 0) - (if d =? a then fopt f_ext (get a m) else 0).
Proof.
  intros Hwf. unfold pools_rec. rewrite sumf_del. destruct (Z.eqb_spec d a) as [->|Hne].
  - rewrite wf_get_del_same by exact Hwf. destruct (a =? ROWAN); cbn [fopt]; lia.
  - rewrite wf_get_del_other by assumption. destruct (d =? ROWAN); lia.
Qed.

Lemma recorded_set_pool s a p d :
  recorded (set_pool s a p) d =
  recorded s d
  + (if d =? ROWAN then f_native p - fopt f_native (get a (cs_pools s)) else 0)
  + (if d =? a then f_ext p - fopt f_ext (get a (cs_pools s)) else 0).
Proof.
  rewrite !recorded_eq. change (cs_pools (set_pool s a p)) with (set a p (cs_pools s)). rewrite pools_rec_set.
  change (cs_buckets (set_pool s a p)) with (cs_buckets s). lia.
Qed.

Lemma recorded_with_bank s b d : recorded (with_bank s b) d = recorded s d.
Proof. reflexivity. Qed.
Lemma bank_set_pool s a p : cs_bank (set_pool s a p) = cs_bank s.
Proof. reflexivity. Qed.
Lemma bank_with_bank s b : cs_bank (with_bank s b) = b.
Proof. reflexivity. Qed.
Lemma pools_with_bank s b : cs_pools (with_bank s b) = cs_pools s.
Proof. reflexivity. Qed.
Lemma pools_set_pool s a p : cs_pools (set_pool s a p) = set a p (cs_pools s).
Proof. reflexivity. Qed.
Lemma gap_set_lp s a addr l d : gap (set_lp s a addr l) d = gap s d.
Proof. reflexivity. Qed.

Lemma gap_write s s' a p b d :
  cs_bank s' = b -> cs_pools s' = set a p (cs_pools s) -> cs_buckets s' = cs_buckets s ->
  gap s' d = gap s d + (bal b CLP_MODULE d - bal (cs_bank s) CLP_MODULE d)
             - (if d =? ROWAN then f_native p - fopt f_native (get a (cs_pools s)) else 0)
             - (if d =? a then f_ext p - fopt f_ext (get a (cs_pools s)) else 0).
Proof. intros Hb Hp Hbk. unfold gap. rewrite !recorded_eq, Hb, Hp, Hbk, pools_rec_set. lia. Qed.

Lemma pay_in b sg a e n b2 d : sg <> CLP_MODULE -> paid_in b sg a e n b2 ->
  bal b2 CLP_MODULE d = bal b CLP_MODULE d + (if d =? a then e else 0) + (if d =? ROWAN then n else 0).
Proof.
  intros Hsg (b1 & H1 & H2). apply send_effect in H1, H2. destruct H1 as (_ & H1 & _), H2 as (_ & H2 & _). rewrite H2, H1.
  destruct (Z.eqb_spec CLP_MODULE sg); [congruence|]. rewrite Z.eqb_refl. cbn [andb]. lia.
Qed.
Lemma pay_out b sg a e n b2 d : sg <> CLP_MODULE -> paid_out b sg a e n b2 ->
  bal b2 CLP_MODULE d = bal b CLP_MODULE d - (if d =? a then e else 0) - (if d =? ROWAN then n else 0).
Proof.
  intros Hsg (b1 & H1 & H2). apply send_effect in H1, H2. destruct H1 as (_ & H1 & _), H2 as (_ & H2 & _). rewrite H2, H1.
  destruct (Z.eqb_spec CLP_MODULE sg); [congruence|]. rewrite Z.eqb_refl. cbn [andb]. lia.
Qed.

Lemma removed_gap s sg a s' : sg <> CLP_MODULE -> removed s sg a s' -> forall d, gap s' d = gap s d.
Proof.
  intros Hsg (pl & l0 & wn & we & lft & caller & b2 & -> & (_ & Hp & _) & _ & _ & Hpay) d.
  erewrite (gap_write s _ a _ b2 d); [|destruct (lft =? 0); reflexivity..].
  rewrite Hp, (pay_out _ _ _ _ _ _ d Hsg Hpay). unfold f_native, f_ext. cbn -[Z.eqb Z.add Z.sub gap bal].
  destruct (d =? ROWAN); destruct (d =? a); lia.
Qed.

Lemma leg_rec tr a z pm f m res m' d : leg tr a z pm f m res m' ->
  pools_rec m' d = pools_rec m d + (if d =? ROWAN then (if tr then - res else z) else 0)
                                 + (if d =? a then (if tr then z else - res) else 0).
Proof.
  intros (p & fee & sp & Hg & Hs & ->). apply swap_one_effect in Hs. rewrite pools_rec_set, Hg. cbn [fopt].
  unfold f_native, f_ext, upd_balances; cbn. cbn in Hs.
  destruct tr; destruct Hs as ((H1 & H2 & H3) & _ & _); rewrite H1, H2; destruct (d =? ROWAN); destruct (d =? a); lia.
Qed.

Lemma swap_gap s sg sent recv amt mn s' emit :
  sg <> CLP_MODULE ->
  swap s sg sent recv amt mn = Ok (s', emit) -> forall d, gap s' d = gap s d.
Proof.
  intros Hsg H d.
  destruct (swap_inv _ _ _ _ _ _ _ _ H) as (b1 & b2 & mid & pools1 & (Hbank & _ & Hbk & _) & (Hleg1 & Hleg2) & (Hb1 & _ & Hb2) & _).
  unfold gap. rewrite !recorded_eq, Hbank, Hbk, (leg_rec _ _ _ _ _ _ _ _ d Hleg2).
  apply send_effect in Hb1, Hb2. destruct Hb1 as (_ & Hbal1 & _), Hb2 as (_ & Hbal2 & _). rewrite Hbal2, Hbal1.
  destruct (Z.eqb_spec CLP_MODULE sg) as [E|_]; [congruence|]. rewrite Z.eqb_refl. cbn [andb].
  revert Hleg1.
  destruct (Z.eqb_spec sent ROWAN) as [Es|Es]; destruct (Z.eqb_spec recv ROWAN) as [Er|Er]; cbn [negb andb]; intros Hleg1.
  1-3: destruct Hleg1 as [-> ->].
  4: rewrite (leg_rec _ _ _ _ _ _ _ _ d Hleg1).
  all: destruct (Z.eqb_spec d ROWAN); destruct (Z.eqb_spec d sent); destruct (Z.eqb_spec d recv); lia.
Qed.

Definition coin_sum (d : Z) (coins : list (Z * Z)) : Z :=
  fold_right (fun c acc => (if fst c =? d then snd c else 0) + acc) 0 coins.

Lemma send_all_effect coins : forall b from to b',
  send_all b from to coins = Ok b' ->
  forall a' d', bal b' a' d' = bal b a' d' - (if a' =? from then coin_sum d' coins else 0)
                                          + (if a' =? to then coin_sum d' coins else 0).
Proof.
  induction coins as [|[d x] rest IH]; intros b from to b' H a' d'; cbn [send_all] in H.
  - injection H as <-. cbn. destruct (a' =? from); destruct (a' =? to); lia.
  - bind_inv H as b1 Hb1. apply bsend_ok, send_effect in Hb1. destruct Hb1 as (_ & Hbal & _).
    rewrite (IH _ _ _ _ H), Hbal. cbn [coin_sum fold_right fst snd]. fold (coin_sum d' rest). rewrite (Z.eqb_sym d d').
    destruct (a' =? from); destruct (a' =? to); destruct (d' =? d); cbn [andb]; lia.
Qed.

Lemma bucket_fold_effect coins : forall m d,
  getz d (fold_left (fun m c => set (fst c) (getz (fst c) m + snd c) m) coins m) = getz d m + coin_sum d coins.
Proof.
  induction coins as [|[k x] rest IH]; intros m d; cbn [fold_left coin_sum fold_right fst snd].
  - lia.
  - rewrite IH. fold (coin_sum d rest). destruct (Z.eqb_spec k d) as [->|Hne].
    + rewrite getz_set_same. lia.
    + rewrite getz_set_other by auto. lia.
Qed.

Lemma add_to_bucket_gap s sg coins s' :
  sg <> CLP_MODULE ->
  add_to_bucket s sg coins = Ok s' -> forall d, gap s' d = gap s d.
Proof.
  intros Hsg H d. destruct (add_to_bucket_spec _ _ _ _ H) as (b' & Hb & ->).
  unfold gap. rewrite !recorded_eq. cbn -[Z.eqb Z.add Z.sub getz bal pools_rec].
  rewrite (send_all_effect _ _ _ _ _ Hb), bucket_fold_effect.
  destruct (Z.eqb_spec CLP_MODULE sg); [congruence|]. rewrite Z.eqb_refl. lia.
Qed.

Definition custody_nonneg (s : clp_state) : Prop :=
  forall a p, get a (cs_pools s) = Some p -> 0 <= p_nc p /\ 0 <= p_ec p /\ 0 <= p_nb p /\ 0 <= p_eb p.

Lemma decommission_gap s sg a s' :
  wf (cs_pools s) -> custody_nonneg s ->
  decommission s sg a = Ok s' ->
  forall d, gap s d <= gap s' d /\ (d <> ROWAN -> d <> a -> gap s' d = gap s d).
Proof.
  intros Hwf Hc H d. destruct (decommission_spec _ _ _ _ H) as (pl & b' & -> & Hp & Hbound).
  destruct (Hc _ _ Hp) as (Hnc & Hec & Hnb & Heb). destruct (Hbound Hnb Heb) as (nbf & ebf & Hn0 & He0 & Hbal).
  specialize (Hbal d). unfold gap. rewrite !recorded_eq. cbn -[Z.eqb Z.add Z.sub getz bal pools_rec].
  rewrite (pools_rec_del _ _ _ Hwf), Hp. unfold f_native, f_ext. cbn [fopt].
  destruct (Z.eqb_spec d ROWAN); destruct (Z.eqb_spec d a); split; try lia; congruence.
Qed.

Definition is_decommission (m : clp_msg) : bool := match m with MDecommission _ _ => true | _ => false end.

Lemma handle_gap s m s' :
  signer_of m <> CLP_MODULE -> is_decommission m = false ->
  handle s m = Ok s' -> forall d, gap s' d = gap s d.
Proof.
  destruct m as [sg a n e|sg a n e|sg a w asym|sg a u|sg sa ra amt mn|sg a u|sg a u|sg a|sg cs];
  cbn [signer_of is_decommission handle]; intros Hsg Hd H d; try discriminate Hd.
  - destruct (create_pool_spec _ _ _ _ _ _ H) as (b2 & -> & _ & Hnone & _ & _ & Hpay).
    erewrite (gap_write s _ a _ b2 d); [|reflexivity..]. rewrite Hnone, (pay_in _ _ _ _ _ _ d Hsg Hpay).
    unfold f_native, f_ext, new_pool. cbn [fopt p_nb p_nc p_eb p_ec]. destruct (d =? ROWAN); destruct (d =? a); lia.
  - destruct (add_liquidity_spec _ _ _ _ _ _ H) as (p & pu & lpu & st & sw & b2 & -> & _ & Hp & _ & _ & Hpay).
    erewrite (gap_write s _ a _ b2 d); [|reflexivity..]. rewrite Hp, (pay_in _ _ _ _ _ _ d Hsg Hpay).
    unfold f_native, f_ext. cbn -[Z.eqb Z.add Z.sub gap bal]. destruct (d =? ROWAN); destruct (d =? a); lia.
  - exact (removed_gap _ _ _ _ Hsg (remove_liquidity_spec _ _ _ _ _ _ H) d).
  - exact (removed_gap _ _ _ _ Hsg (remove_liquidity_units_spec _ _ _ _ _ H) d).
  - bind_inv H as [s1 emit] Hswap. injection H as <-. exact (swap_gap _ _ _ _ _ _ _ _ Hsg Hswap d).
  - destruct (unlock_spec _ _ _ _ _ H) as (l0 & l' & -> & _). reflexivity.
  - destruct (cancel_unlock_spec _ _ _ _ _ H) as (l0 & l' & -> & _). reflexivity.
  - exact (add_to_bucket_gap _ _ _ _ Hsg H d).
Qed.

Lemma fee_gap s sg fee d : sg <> CLP_MODULE -> gap (with_bank s (credit (cs_bank s) sg ROWAN (- fee))) d = gap s d.
Proof.
  intros Hsg. unfold gap. rewrite bank_with_bank, recorded_with_bank, bal_credit.
  destruct (Z.eqb_spec CLP_MODULE sg); [congruence|]. cbn [andb]. lia.
Qed.

(* a delivered transaction, successful or not, keeps balance - recorded unchanged for every denom;
   a decommission may only increase it *)
Lemma deliver_gap s fee m :
  signer_of m <> CLP_MODULE ->
  wf (cs_pools s) -> custody_nonneg s ->
  forall d, gap s d <= gap (fst (deliver s fee m)) d /\
            (is_decommission m = false -> gap (fst (deliver s fee m)) d = gap s d).
Proof.
  intros Hsg Hwf Hc d.
  apply (deliver_cases (fun s' => gap s d <= gap s' d /\ (is_decommission m = false -> gap s' d = gap s d))); cbn beta zeta.
  - rewrite fee_gap by exact Hsg. split; [lia|reflexivity].
  - intros s' Hh. destruct (is_decommission m) eqn:Hd.
    + destruct m; try discriminate Hd. apply decommission_gap with (d := d) in Hh; [|exact Hwf|exact Hc].
      rewrite fee_gap in Hh by exact Hsg. split; [tauto|discriminate].
    + rewrite (handle_gap _ m s' Hsg Hd Hh d), fee_gap by exact Hsg. split; [lia|reflexivity].
Qed.

Fixpoint run_txs (s : clp_state) (txs : list (Z * clp_msg)) : clp_state :=
  match txs with
  | [] => s
  | (fee, m) :: rest => run_txs (fst (deliver s fee m)) rest
  end.

Definition good (s : clp_state) : Prop := wf (cs_pools s) /\ custody_nonneg s.

Fixpoint good_run (s : clp_state) (txs : list (Z * clp_msg)) : Prop :=
  match txs with
  | [] => True
  | (fee, m) :: rest => good s /\ signer_of m <> CLP_MODULE /\ good_run (fst (deliver s fee m)) rest
  end.

Lemma run_txs_gap txs : forall s,
  good_run s txs ->
  forall d, gap s d <= gap (run_txs s txs) d /\
            (forallb (fun t => negb (is_decommission (snd t))) txs = true -> gap (run_txs s txs) d = gap s d).
Proof.
  induction txs as [|[fee m] rest IH]; intros s Hg d; cbn [run_txs good_run forallb snd] in *.
  - split; [lia|reflexivity].
  - destruct Hg as ((Hwf & Hc) & Hsg & Hrest).
    destruct (deliver_gap s fee m Hsg Hwf Hc d) as (H1 & H2).
    destruct (IH _ Hrest d) as (H3 & H4). split; [lia|].
    intros Hall. apply andb_prop in Hall. destruct Hall as (Hm & Hr).
    apply negb_true_iff in Hm. rewrite (H4 Hr), (H2 Hm). reflexivity.
Qed.

Definition solvent (s : clp_state) : Prop := forall d, 0 <= gap s d.

Lemma run_txs_solvent txs s : good_run s txs -> solvent s -> solvent (run_txs s txs).
Proof. intros Hg Hs d. destruct (run_txs_gap txs s Hg d) as (H & _). specialize (Hs d). lia. Qed.
