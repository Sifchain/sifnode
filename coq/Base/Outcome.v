(* Outcome of a Go call: normal return, returned error (small enum code), or panic. *)
From Coq Require Import ZArith List.
Import ListNotations.

Inductive Outcome (A : Type) : Type :=
| Ok (a : A)
| Err (code : Z)
| Panic.
Arguments Ok {A} a.
Arguments Err {A} code.
Arguments Panic {A}.

Definition bind {A B} (o : Outcome A) (f : A -> Outcome B) : Outcome B :=
  match o with
  | Ok a => f a
  | Err c => Err c
  | Panic => Panic
  end.

Definition is_ok {A} (o : Outcome A) : bool :=
  match o with Ok _ => true | _ => false end.
Definition is_panic {A} (o : Outcome A) : bool :=
  match o with Panic => true | _ => false end.

Declare Scope outcome_scope.
Delimit Scope outcome_scope with outcome.
Notation "x <- e1 ;; e2" := (bind e1 (fun x => e2))
  (at level 61, e1 at next level, right associativity) : outcome_scope.
Notation "' p <- e1 ;; e2" := (bind e1 (fun x => match x with p => e2 end))
  (at level 61, p pattern, e1 at next level, right associativity) : outcome_scope.

Definition guard (b : bool) (code : Z) : Outcome unit :=
  if b then Ok tt else Err code.
Definition require_nopanic (b : bool) : Outcome unit :=
  if b then Ok tt else Panic.

Lemma bind_ok_inv {A B} (o : Outcome A) (f : A -> Outcome B) b :
  bind o f = Ok b -> exists a, o = Ok a /\ f a = Ok b.
Proof. destruct o; simpl; intros H; try discriminate; eauto. Qed.

(* For examples that run the model. E : x = t, t closed: t is replaced by its value. The equation between t and its value
   is proved in goal position, where vm_compute leaves a cast the kernel checks with the virtual machine; [vm_compute in E]
   leaves a cast of the default kind, which the kernel checks by ordinary reduction (seconds for one add-liquidity). *)
Ltac run_once E :=
  match type of E with
  | _ = ?t =>
    let v := eval vm_compute in t in
    let H := fresh in assert (H : t = v) by (vm_compute; reflexivity); rewrite H in E; clear H
  end.
