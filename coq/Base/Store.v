(* A KV store as an association list kept sorted by (integer) key.  Iteration order of the
   real IAVL stores is ascending key-byte order; the harness assigns integer ids in that order. *)
From Coq Require Import ZArith Lia List Bool.
Import ListNotations.
Local Open Scope Z_scope.

Section Store.
Context {V : Type}.

Definition store := list (Z * V).

Fixpoint get (k : Z) (m : store) : option V :=
  match m with
  | [] => None
  | (k', v) :: m' =>
    if k' <? k then get k m'
    else if k' =? k then Some v else None
  end.

Fixpoint set (k : Z) (v : V) (m : store) : store :=
  match m with
  | [] => [(k, v)]
  | (k', v') :: m' =>
    if k' <? k then (k', v') :: set k v m'
    else if k' =? k then (k, v) :: m'
    else (k, v) :: (k', v') :: m'
  end.

Fixpoint del (k : Z) (m : store) : store :=
  match m with
  | [] => []
  | (k', v') :: m' =>
    if k' <? k then (k', v') :: del k m'
    else if k' =? k then m'
    else m
  end.

Definition keys (m : store) : list Z := map fst m.
Definition vals (m : store) : list V := map snd m.

Fixpoint sorted_from (lo : Z) (m : store) : Prop :=
  match m with
  | [] => True
  | (k, _) :: m' => lo < k /\ sorted_from k m'
  end.
Definition sorted (m : store) : Prop :=
  match m with
  | [] => True
  | (k, _) :: m' => sorted_from k m'
  end.

Variable f : V -> Z.
Definition sumf (m : store) : Z := fold_right (fun kv acc => f (snd kv) + acc) 0 m.
Definition fopt (o : option V) : Z := match o with Some v => f v | None => 0 end.

Lemma sumf_set k v m : sumf (set k v m) = sumf m - fopt (get k m) + f v.
Proof.
  induction m as [|[k' v'] m IH]; simpl; [lia|].
  destruct (k' <? k) eqn:E1; simpl; [rewrite IH; lia|].
  destruct (k' =? k) eqn:E2; simpl; lia.
Qed.

Lemma sumf_del k m : sumf (del k m) = sumf m - fopt (get k m).
Proof.
  induction m as [|[k' v'] m IH]; simpl; [lia|].
  destruct (k' <? k) eqn:E1; simpl; [rewrite IH; lia|].
  destruct (k' =? k) eqn:E2; simpl; lia.
Qed.

Lemma sumf_nonneg m : (forall v, 0 <= f v) -> 0 <= sumf m.
Proof. intros H; induction m as [|[k v] m IH]; simpl; [lia|]. specialize (H v). lia. Qed.

Lemma sumf_get_le k m v : (forall v, 0 <= f v) -> get k m = Some v -> f v <= sumf m.
Proof.
  intros Hf; induction m as [|[k' v'] m IH]; simpl; [discriminate|].
  pose proof (sumf_nonneg m Hf). specialize (Hf v').
  destruct (k' <? k); [intros H1; specialize (IH H1); lia|].
  destruct (k' =? k); [intros [= ->]; lia| discriminate].
Qed.

End Store.

Arguments store V : clear implicits.

Section StoreProps.
Context {V : Type}.

Lemma sorted_from_weaken lo lo' (m : store V) : lo' <= lo -> sorted_from lo m -> sorted_from lo' m.
Proof. destruct m as [|[k v] m]; simpl; auto. intros ? [? ?]; split; auto; lia. Qed.

Definition wf (m : store V) : Prop := exists lo, sorted_from lo m.

Lemma get_lt_none lo k (m : store V) : sorted_from lo m -> k <= lo -> get k m = None.
Proof.
  revert lo; induction m as [|[k' v'] m IH]; simpl; auto.
  intros lo [H1 H2] Hk.
  destruct (Z.ltb_spec k' k); [lia|]. destruct (Z.eqb_spec k' k); [lia|reflexivity].
Qed.

Lemma set_sorted_from lo k v (m : store V) : lo < k -> sorted_from lo m -> sorted_from lo (set k v m).
Proof.
  revert lo; induction m as [|[k' v'] m IH]; simpl; intros lo Hlo Hs; [auto|].
  destruct Hs as [H1 H2].
  destruct (Z.ltb_spec k' k); simpl; [split; auto|].
  destruct (Z.eqb_spec k' k); simpl; [subst; auto|].
  repeat split; auto; lia.
Qed.


Lemma del_sorted_from lo k (m : store V) : sorted_from lo m -> sorted_from lo (del k m).
Proof.
  revert lo; induction m as [|[k' v'] m IH]; simpl; intros lo Hs; [auto|].
  destruct Hs as [H1 H2].
  destruct (Z.ltb_spec k' k); simpl; [split; auto|].
  destruct (Z.eqb_spec k' k); simpl; [|split; auto].
  eapply sorted_from_weaken; [|exact H2]. lia.
Qed.


Lemma get_set_same k v (m : store V) : get k (set k v m) = Some v.
Proof.
  induction m as [|[k' v'] m IH]; simpl.
  - rewrite Z.ltb_irrefl, Z.eqb_refl; reflexivity.
  - destruct (Z.ltb_spec k' k); simpl.
    + destruct (Z.ltb_spec k' k); [auto|lia].
    + destruct (Z.eqb_spec k' k); simpl; rewrite Z.ltb_irrefl, Z.eqb_refl; reflexivity.
Qed.

Lemma get_set_other k k2 v (m : store V) : k2 <> k -> get k2 (set k v m) = get k2 m.
Proof.
  intros Hne; induction m as [|[k' v'] m IH]; simpl.
  - destruct (Z.ltb_spec k k2); auto. destruct (Z.eqb_spec k k2); [lia|auto].
  - destruct (Z.ltb_spec k' k); simpl.
    + rewrite IH; reflexivity.
    + destruct (Z.eqb_spec k' k); simpl.
      * subst k'. destruct (Z.ltb_spec k k2); [reflexivity|].
        destruct (Z.eqb_spec k k2); [lia|reflexivity].
      * destruct (Z.ltb_spec k k2).
        { reflexivity. }
        destruct (Z.eqb_spec k k2); [lia|].
        destruct (Z.ltb_spec k' k2); [lia|]. destruct (Z.eqb_spec k' k2); [lia|reflexivity].
Qed.

Lemma wf_get_del_same k (m : store V) : wf m -> get k (del k m) = None.
Proof.
  intros [lo Hs]. revert lo Hs; induction m as [|[k' v'] m IH]; simpl; intros lo Hs; auto.
  destruct Hs as [H1 H2].
  destruct (Z.ltb_spec k' k); simpl.
  - destruct (Z.ltb_spec k' k); [eauto|lia].
  - destruct (Z.eqb_spec k' k); simpl.
    + subst. eapply get_lt_none; eauto; lia.
    + destruct (Z.ltb_spec k' k); [lia|]. destruct (Z.eqb_spec k' k); [lia|reflexivity].
Qed.


Lemma wf_get_del_other k k2 (m : store V) : wf m -> k2 <> k -> get k2 (del k m) = get k2 m.
Proof.
  intros [lo Hs]. revert lo Hs; induction m as [|[k' v'] m IH]; simpl; intros lo Hs Hne; auto.
  destruct Hs as [H1 H2].
  destruct (Z.ltb_spec k' k); simpl.
  - rewrite (IH k'); auto.
  - destruct (Z.eqb_spec k' k); simpl; [|reflexivity].
    subst k'. destruct (Z.ltb_spec k k2); [reflexivity|].
    destruct (Z.eqb_spec k k2); [lia|]. eapply get_lt_none; eauto; lia.
Qed.

Lemma get_set k k2 v (m : store V) : get k2 (set k v m) = if k2 =? k then Some v else get k2 m.
Proof. destruct (Z.eqb_spec k2 k) as [->|Hne]; [apply get_set_same|apply get_set_other; exact Hne]. Qed.

Lemma set_get_same k v (m : store V) : get k m = Some v -> set k v m = m.
Proof.
  induction m as [|[k' v'] m IH]; cbn [get set]; [discriminate|].
  destruct (k' <? k); [intros H; rewrite (IH H); reflexivity|].
  destruct (Z.eqb_spec k' k) as [->|]; [intros [= ->]; reflexivity|discriminate].
Qed.

Lemma set_set_same k v v' (m : store V) : set k v (set k v' m) = set k v m.
Proof.
  induction m as [|[k' w] m IH]; cbn [set].
  - rewrite Z.ltb_irrefl, Z.eqb_refl. reflexivity.
  - destruct (k' <? k) eqn:E1; cbn [set]; [rewrite E1, IH; reflexivity|].
    destruct (k' =? k); cbn [set]; rewrite Z.ltb_irrefl, Z.eqb_refl; reflexivity.
Qed.

Lemma del_set_same k v (m : store V) : del k (set k v m) = del k m.
Proof.
  induction m as [|[k' w] m IH]; cbn [set del].
  - rewrite Z.ltb_irrefl, Z.eqb_refl. reflexivity.
  - destruct (k' <? k) eqn:E1; cbn [del]; [rewrite E1, IH; reflexivity|].
    destruct (k' =? k); cbn [del]; rewrite Z.ltb_irrefl, Z.eqb_refl; reflexivity.
Qed.

Lemma sorted_from_lb lo (m : store V) k v : sorted_from lo m -> In (k, v) m -> lo < k.
Proof.
  revert lo. induction m as [|[k' v'] m IH]; intros lo Hs Hin; [destruct Hin|].
  destruct Hs as [H1 H2]. destruct Hin as [[= -> ->]|Hin]; [exact H1|]. specialize (IH k' H2 Hin). lia.
Qed.

Lemma get_in k (m : store V) v : get k m = Some v -> In (k, v) m.
Proof.
  induction m as [|[k' v'] m IH]; cbn [get]; [discriminate|]. destruct (k' <? k); [intros H; right; apply IH; exact H|].
  destruct (Z.eqb_spec k' k) as [->|]; [intros [= ->]; left; reflexivity|discriminate].
Qed.

Lemma in_get (m : store V) k v : wf m -> In (k, v) m -> get k m = Some v.
Proof.
  intros [lo Hs]. revert lo Hs. induction m as [|[k' v'] m IH]; intros lo Hs Hin; [destruct Hin|]. destruct Hs as [H1 H2].
  cbn [get]. destruct Hin as [[= -> ->]|Hin]; [rewrite Z.ltb_irrefl, Z.eqb_refl; reflexivity|].
  pose proof (sorted_from_lb k' m k v H2 Hin). destruct (Z.ltb_spec k' k); [|lia]. exact (IH k' H2 Hin).
Qed.

Lemma in_keys_get (m : store V) k : wf m -> In k (map fst m) -> get k m <> None.
Proof.
  intros Hw Hin. apply in_map_iff in Hin. destruct Hin as ([k' v] & E & Hin). cbn in E. subst k'.
  rewrite (in_get m k v Hw Hin). discriminate.
Qed.

Lemma sorted_keys_nodup lo (m : store V) : sorted_from lo m -> NoDup (map fst m).
Proof.
  revert lo. induction m as [|[k v] m IH]; intros lo Hs; [constructor|]. destruct Hs as [_ H2].
  constructor; [|exact (IH k H2)].
  intros Hin. apply in_map_iff in Hin. destruct Hin as ([k' v'] & E & Hin). cbn in E. subst k'.
  pose proof (sorted_from_lb k m k v' H2 Hin). lia.
Qed.

Lemma Forall_set (P : Z * V -> Prop) k v (m : store V) : P (k, v) -> Forall P m -> Forall P (set k v m).
Proof.
  intros Hv. induction m as [|[k' v'] m IH]; intros H; cbn [set]; [constructor; [exact Hv|constructor]|].
  inversion H as [|? ? H1 H2]; subst. destruct (k' <? k); [constructor; [exact H1|apply IH; exact H2]|].
  destruct (k' =? k); [constructor; [exact Hv|exact H2]|constructor; [exact Hv|exact H]].
Qed.
Lemma Forall_del (P : Z * V -> Prop) k (m : store V) : Forall P m -> Forall P (del k m).
Proof.
  induction m as [|[k' v'] m IH]; intros H; cbn [del]; [constructor|].
  inversion H as [|? ? H1 H2]; subst. destruct (k' <? k); [constructor; [exact H1|apply IH; exact H2]|].
  destruct (k' =? k); [exact H2|exact H].
Qed.

Lemma wf_nil : wf [].
Proof. exists 0. exact I. Qed.
Lemma wf_set k v (m : store V) : wf m -> wf (set k v m).
Proof.
  intros [lo H]. exists (Z.min lo k - 1). apply set_sorted_from; [lia|]. eapply sorted_from_weaken; [|exact H]. lia.
Qed.
Lemma wf_del k (m : store V) : wf m -> wf (del k m).
Proof. intros [lo H]. exists lo. apply del_sorted_from. exact H. Qed.

End StoreProps.
