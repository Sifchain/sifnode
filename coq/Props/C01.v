(* C01 — AMM solvency.  gap s d = (coins of denom d held by the clp module account)
                                 - (sum over pools of balance + custody in d) - (rewards bucket of d). *)
From Coq Require Import ZArith List Bool.
From Sif Require Import Base.Outcome Base.Store Base.Bank Model.ClpTypes Model.ClpState Model.ClpMsgs Proofs.ClpInv.
Import ListNotations.
Local Open Scope Z_scope.

(* every user message other than a decommission, from any state, with any amounts: if it succeeds the
   recorded amounts and the coins held move by exactly the same quantities, for every denom *)
Theorem C01_message_exact : forall s m s',
  signer_of m <> CLP_MODULE -> is_decommission m = false ->
  handle s m = Ok s' -> forall d, gap s' d = gap s d.
Proof. exact handle_gap. Qed.
Print Assumptions C01_message_exact.

(* a delivered transaction (fee, then message, message writes discarded on failure) *)
Theorem C01_transaction : forall s fee m,
  signer_of m <> CLP_MODULE -> wf (cs_pools s) -> custody_nonneg s ->
  forall d, gap s d <= gap (fst (deliver s fee m)) d /\
            (is_decommission m = false -> gap (fst (deliver s fee m)) d = gap s d).
Proof. exact deliver_gap. Qed.
Print Assumptions C01_transaction.

(* decommissioning a pool can only leave coins behind (the rounding remainder), never a shortfall,
   and touches only the pool's two denoms *)
Theorem C01_decommission : forall s sg a s',
  wf (cs_pools s) -> custody_nonneg s -> decommission s sg a = Ok s' ->
  forall d, gap s d <= gap s' d /\ (d <> ROWAN -> d <> a -> gap s' d = gap s d).
Proof. exact decommission_gap. Qed.
Print Assumptions C01_decommission.

(* histories of any length: the module covers the recorded amounts after every transaction, and
   balance - recorded is constant along histories without decommission.
   The side condition good_run (sorted pool store, non-negative recorded amounts in every visited state) is a
   hypothesis here; C01_history below needs it of the first state only, and C01_chain covers the block hooks of x/clp
   (provider distribution, depth rewards, epoch payouts) together with the transactions. *)
Theorem C01_history_partial : forall txs s,
  good_run s txs ->
  forall d, gap s d <= gap (run_txs s txs) d /\
            (forallb (fun t => negb (is_decommission (snd t))) txs = true -> gap (run_txs s txs) d = gap s d).
Proof. exact run_txs_gap. Qed.
Print Assumptions C01_history_partial.

Theorem C01_solvency_partial : forall txs s, good_run s txs -> solvent s -> solvent (run_txs s txs).
Proof. exact run_txs_solvent. Qed.
Print Assumptions C01_solvency_partial.

(* the same over histories with a premise on the first state only: a pool store in key order with non-negative balances
   and custody is kept in that shape by every delivered transaction (Proofs/ClpGood.v), so the side condition of
   C01_history_partial holds along any run *)
From Sif Require Proofs.ClpGood.
Module CG := Sif.Proofs.ClpGood.
Theorem C01_history : forall txs s, CG.GInv s -> CG.signers_ok txs ->
  forall d, gap s d <= gap (run_txs s txs) d /\
            (forallb (fun t => negb (is_decommission (snd t))) txs = true -> gap (run_txs s txs) d = gap s d).
Proof. exact CG.run_txs_gap_full. Qed.
Print Assumptions C01_history.
Theorem C01_solvency : forall txs s, CG.GInv s -> CG.signers_ok txs -> solvent s -> solvent (run_txs s txs).
Proof. exact CG.run_txs_solvent_full. Qed.
Print Assumptions C01_solvency.

(* non-vacuity: a concrete state with a pool; a swap and an add execute and keep the gap at 0 *)
Definition ex_params := mkCP 0 3000000000000000 [] 0 0 [(0, 7); (1, 7)] [10] 0 false [] 0.
Definition ex_state : clp_state :=
  mkClp (mkBank [(1, [(0, 5000000000000000000000); (1, 7000000000000000000000)]);
                 (10, [(0, 9000000000000000000000); (1, 9000000000000000000000)])] [])
        [(1, mkPool 5000000000000000000000 7000000000000000000000 5000000000000000000000 0 0 0 0 0 0)]
        [(1, [(10, mkLp 5000000000000000000000 [] 2)])] [] 0 [] [] 5 ex_params.
Definition ex_txs := [(1000, MSwap 10 0 1 1000000000000000000 0); (1000, MAddLiquidity 10 1 3000000000000000000 0);
                      (1000, MRemoveLiquidity 10 1 5000 0); (1000, MDecommission 10 1)].
Example C01_example :
  gap ex_state 0 = 0 /\ gap ex_state 1 = 0 /\
  map (fun n => (gap (run_txs ex_state (firstn n ex_txs)) 0, gap (run_txs ex_state (firstn n ex_txs)) 1)) [1; 2; 3; 4]%nat
    = [(0, 0); (0, 0); (0, 0); (0, 0)] /\
  snd (deliver ex_state 1000 (MSwap 10 0 1 1000000000000000000 0)) = true.
Proof.
  unfold ex_txs. cbn [map firstn run_txs].
  (* the statement names the state after each prefix of the history, for both tokens: each transaction is run
     once, on the value the one before it left *)
  remember (deliver ex_state _ _) as d1 eqn:E; run_once E; subst d1. cbn [fst snd].
  remember (fst (deliver _ _ (MAddLiquidity _ _ _ _))) as s2 eqn:E; run_once E; subst s2.
  remember (fst (deliver _ _ (MRemoveLiquidity _ _ _ _))) as s3 eqn:E; run_once E; subst s3.
  remember (fst (deliver _ _ (MDecommission _ _))) as s4 eqn:E; run_once E; subst s4.
  vm_compute. repeat split; reflexivity.
Qed.

(* ---- the per-block processing of x/clp (Proofs/ClpHooksGap.v): for every token the module account holds exactly as much
   beyond the recorded amounts after the hook as before it ---- *)
From Sif Require Proofs.ClpHooksGap Model.ClpEpoch Model.ClpHooks Base.SdkMath.
Module HG := Sif.Proofs.ClpHooksGap.
(* AfterEpochEnd: the rewards buckets paid out to wallets or re-invested into the pools (failed payments and failed
   re-investments included). Premise: no provider record is keyed by the module account. *)
Theorem C01_epoch_hook : forall s s',
  Forall (fun kv => HG.no_module_lp (snd kv)) (cs_lps s) -> Sif.Model.ClpEpoch.after_epoch_end s = Ok s' -> forall d, gap s' d = gap s d.
Proof. exact HG.after_epoch_end_gap. Qed.
Print Assumptions C01_epoch_hook.
(* EndBlocker, provider distribution: what leaves the pools' native balances is what the providers are paid (payments
   that fail are put back). Premises: pools in key order; a pool with providers has a non-negative native balance,
   positive units and providers with non-negative units other than the module account; period rates in [0,1] (validated). *)
Theorem C01_provider_distribution : forall s s',
  HG.lppd_ready s -> Forall (fun p => 0 <= pd_rate p <= Sif.Base.SdkMath.PREC) (cs_lppd_periods s) ->
  Sif.Model.ClpHooks.lppd_run s = Ok s' -> forall d, gap s' d = gap s d.
Proof. exact HG.lppd_run_gap. Qed.
Print Assumptions C01_provider_distribution.
(* EndBlocker, depth rewards: what is minted is added to the pools (accumulation) or paid to the providers, the rest
   burned (distribution). Premises: pools in key order with non-negative native balances, every pool has providers,
   well-formed reward periods, the module account's balance is not negative. *)
Theorem C01_depth_rewards : forall s s' minted burned,
  HG.rewards_ready s -> Sif.Model.ClpHooks.rewards_run s = Ok (s', minted, burned) -> forall d, gap s' d = gap s d.
Proof. exact HG.rewards_run_gap. Qed.
Print Assumptions C01_depth_rewards.
Theorem C01_end_block : forall s s' minted burned,
  HG.lppd_ready s -> Forall (fun p => 0 <= pd_rate p <= Sif.Base.SdkMath.PREC) (cs_lppd_periods s) ->
  (forall s1, Sif.Model.ClpHooks.lppd_run s = Ok s1 -> HG.rewards_ready s1) ->
  Sif.Model.ClpHooks.end_block s = Ok (s', minted, burned) -> forall d, gap s' d = gap s d.
Proof. exact HG.end_block_gap. Qed.
Print Assumptions C01_end_block.

(* chains of blocks: transactions, EndBlocker, the epoch hook and block advances in any order. After every step the module
   account covers the recorded amounts, and as long as no pool is decommissioned it holds exactly as much beyond them as
   at the start. chain_ready collects, along the run, what each step relies on in the state it starts from (sorted pool
   store and non-negative amounts for a transaction; the hooks' premises above); a failing hook leaves the state as it was. *)
Theorem C01_chain : forall steps s, HG.chain_ready s steps ->
  forall d, gap s d <= gap (fold_left HG.chain_apply steps s) d /\
            (forallb HG.no_decommission steps = true -> gap (fold_left HG.chain_apply steps s) d = gap s d).
Proof. exact HG.chain_gap. Qed.
Print Assumptions C01_chain.
Theorem C01_chain_solvent : forall steps s, HG.chain_ready s steps -> solvent s -> solvent (fold_left HG.chain_apply steps s).
Proof. exact HG.chain_solvent. Qed.
Print Assumptions C01_chain_solvent.

(* non-vacuity: a block in which both the provider distribution (1 %) and the depth rewards (accumulation) run *)
Definition ex_hook_state : clp_state :=
  mkClp (mkBank [(1, [(0, 5000000000000000000000); (1, 7000000000000000000000)]);
                 (10, [(0, 9000000000000000000000)]); (11, [(0, 1000000000000000000)])] [])
        [(1, mkPool 5000000000000000000000 7000000000000000000000 5000000000000000000000 0 0 0 0 0 0)]
        [(1, [(10, mkLp 4000000000000000000000 [] 2); (11, mkLp 1000000000000000000000 [] 2)])] [] 0
        [mkRP 3 12 1000000000000000000000 [] 1000000000000000000 false 1] [mkPD 10000000000000000 4 9 1] 5 ex_params.
Example C01_end_block_example :
  HG.lppd_ready ex_hook_state /\
  match Sif.Model.ClpHooks.end_block ex_hook_state with
  | Ok (s', minted, _) => (gap s' 0 = gap ex_hook_state 0) /\ (minted = 100000000000000000000) /\
                          (bal (cs_bank s') 10 0 = 9040000000000000000000) /\ (bal (cs_bank s') 11 0 = 11000000000000000000)
  | _ => False
  end.
Proof.
  split.
  - split; [exists 0; cbn; auto with zarith|]. intros a pl [E|[]] _. injection E as <- <-. vm_compute.
    split; [discriminate|]. split; [reflexivity|]. repeat constructor; cbn; try discriminate.
  - vm_compute. repeat split; reflexivity.
Qed.

(* ---- x/margin (model of Model/Margin.v): what the module account holds beyond what the position's pool records
   (balance + custody, native and external side) is unchanged, and no other denomination of the module account
   moves, by Open, Close, AdminClose and by the begin blocker's processing of a position whatever its outcome ---- *)
Require Sif.Model.Margin Sif.Proofs.MarginProofs.
Module M := Sif.Model.Margin.
Module MP := Sif.Proofs.MarginProofs.

Theorem C01_margin_open : forall s hl signer coll borrow amt lev c' u,
  signer <> M.CLP_MODULE ->
  M.open_msg s hl signer coll borrow amt lev = (c', Ok u) ->
  let a := if coll =? M.ROWAN then borrow else coll in
  exists pool, get a (M.ms_pools s) = Some pool /\
    MP.gap_eq (M.mkCtx s pool (M.new_mtp coll borrow (Z.min lev (M.mp_lev_max (M.ms_params s)))) a signer 0) c'.
Proof. exact MP.open_gap. Qed.
Print Assumptions C01_margin_open.

Theorem C01_margin_close : forall s signer id c' r,
  MP.SumInv s -> MP.pct_ok s -> (forall m, M.find_mtp s signer id = Some m -> MP.position_ok s signer id m) ->
  MP.funds_not_module s -> signer <> M.CLP_MODULE ->
  M.close_msg s signer id = (c', Ok r) ->
  exists pool m, M.find_mtp s signer id = Some m /\ get (M.pool_asset_of m) (M.ms_pools s) = Some pool /\
    MP.gap_eq (M.mkCtx s pool m (M.pool_asset_of m) signer id) c'.
Proof. exact MP.close_gap. Qed.
Print Assumptions C01_margin_close.

Theorem C01_margin_admin_close : forall s adm addr id tf c' r,
  MP.SumInv s -> MP.pct_ok s -> (forall m, M.find_mtp s addr id = Some m -> MP.position_ok s addr id m) ->
  MP.funds_not_module s -> addr <> M.CLP_MODULE ->
  M.admin_close_msg s adm addr id tf = (c', Ok r) ->
  exists pool m, M.find_mtp s addr id = Some m /\ get (M.pool_asset_of m) (M.ms_pools s) = Some pool /\
    MP.gap_eq (M.mkCtx s pool m (M.pool_asset_of m) addr id) c'.
Proof. exact MP.admin_close_gap. Qed.
Print Assumptions C01_margin_admin_close.

Theorem C01_margin_begin_block_position : forall a s p m addr id c' o,
  M.process_mtp (M.mkCtx s p m a addr id) = (c', o) ->
  M.epoch_position s = 0 -> MP.LoopInv a s p -> M.find_mtp s addr id = Some m -> MP.on_pool a m -> id <> 0 -> MP.pct_ok s ->
  0 <= M.m_cust_amt m <= bal (M.ms_bank s) M.CLP_MODULE (M.m_cust_asset m) ->
  MP.funds_not_module s -> addr <> M.CLP_MODULE ->
  MP.gap_eq (M.mkCtx s p m a addr id) c'.
Proof. exact MP.process_mtp_gap. Qed.
Print Assumptions C01_margin_begin_block_position.

(* the margin begin blocker as a whole: interest payments to the fund address, liquidations with their payouts, every
   margin-enabled pool in turn. What the module account holds beyond what the pools record (natively: beyond the sum over
   all pools of balance + custody; per pool: beyond its external balance + custody) is unchanged. Premises: the sums
   invariant of C13 and the start-of-block readiness MReady, which the begin blocker re-establishes (C13_begin_block). *)
From Sif Require Proofs.MarginLoop.
Module ML := Sif.Proofs.MarginLoop.
Theorem C01_margin_begin_block : forall s rates s' closed,
  MP.SumInv s -> ML.MReady s -> M.begin_block_margin s rates = Ok (s', closed) ->
  ML.gapN s' = ML.gapN s /\ (forall a, a <> M.ROWAN -> ML.gapE s' a = ML.gapE s a).
Proof. exact ML.begin_block_margin_gap. Qed.
Print Assumptions C01_margin_begin_block.
