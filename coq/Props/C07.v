(* C07 — peg supply conservation on lock/burn; pause and blacklist stop exports. *)
From Coq Require Import ZArith List Bool.
From Sif Require Import Base.Outcome Base.Store Base.Bank Model.Bridge Proofs.BridgeProofs.
Import ListNotations.
Local Open Scope Z_scope.

(* a successful lock (is_burn = false) or burn (is_burn = true): bridge not paused, receiver not
   blacklisted, native tokens only locked / pegged tokens only burned; the sender loses exactly the amount
   of the token and the fee in ceth (one combined debit when the token is ceth), the fee goes to the
   configured receiver or else the bridge module account, supply of the token drops by the amount,
   every other balance and supply, the prophecies, the whitelist and the peggy list are unchanged *)
Theorem C07_lock_burn : forall s is_burn sender eth amount symbol ceth s',
  sender <> BRIDGE_MODULE ->
  lock_or_burn s is_burn sender eth amount symbol ceth = Ok s' ->
  br_paused s = false /\ mem eth (br_blacklist s) = false /\
  mem symbol (br_peggy s) = is_burn /\
  0 < amount /\ 0 < ceth /\
  (forall a d, bal (br_bank s') a d = bal (br_bank s) a d
     - ind ((a =? sender) && (d =? symbol)) amount
     - ind ((a =? sender) && (d =? CETH)) ceth
     + ind ((a =? fee_receiver s) && (d =? CETH)) ceth) /\
  (forall d, sup (br_bank s') d = sup (br_bank s) d - ind (d =? symbol) amount) /\
  br_prophecies s' = br_prophecies s /\ br_whitelist s' = br_whitelist s /\ br_peggy s' = br_peggy s.
Proof.
  intros s is_burn sender eth amount symbol ceth s' _ H. destruct (lock_or_burn_bank _ _ _ _ _ _ _ _ H) as (b' & -> & B & S).
  apply lock_or_burn_guards in H as (Hamt & Hceth & Hp & Hpg & _ & Hbl & _).
  repeat split; auto. exact (Z.lt_le_trans _ _ _ gas_pos Hceth).
Qed.
Print Assumptions C07_lock_burn.

(* the only other way the bridge changes a supply is a consensus-approved credit (C06_claim_effect);
   claims that do not reach consensus change no balance *)
Theorem C07_claims_only_credit : forall s perm pid val cid ct s',
  create_claim s perm pid val cid ct = Ok s' ->
  exists pr, get pid (br_prophecies s') = Some pr /\
    (pr_status pr <> 1 -> br_bank s' = br_bank s /\ br_peggy s' = br_peggy s).
Proof. intros. apply create_claim_effect in H as (_ & pr & H1 & _ & H2 & _). eauto. Qed.
Print Assumptions C07_claims_only_credit.

(* the blacklist: only the holder of the bridge's administrator role changes it; after an accepted update exactly the
   listed Ethereum accounts are refused (an address is an account here: the harness gives every spelling of one address
   the same id, and the correspondence check compares the stored list as a set of accounts) *)
Theorem C07_blacklist_update : forall s sender addrs s',
  set_blacklist s true sender addrs = Ok s' ->
  (forall a is_burn sd amount symbol ceth, In a addrs -> is_ok (lock_or_burn s' is_burn sd a amount symbol ceth) = false) /\
  (forall a, ~ In a addrs -> mem a (br_blacklist s') = false).
Proof. exact blacklist_takes_effect. Qed.
Print Assumptions C07_blacklist_update.

Theorem C07_blacklist_update_needs_role : forall s sender addrs, exists e, set_blacklist s false sender addrs = e /\ is_ok e = false.
Proof. exact set_blacklist_refused. Qed.
Print Assumptions C07_blacklist_update_needs_role.

Theorem C07_blacklist_update_frame : forall s is_admin sender addrs s',
  set_blacklist s is_admin sender addrs = Ok s' ->
  is_admin = true /\ br_blacklist s' = addrs /\ br_bank s' = br_bank s /\ br_prophecies s' = br_prophecies s /\
  br_paused s' = br_paused s /\ br_peggy s' = br_peggy s /\ br_accounts s' = br_accounts s.
Proof. exact set_blacklist_effect. Qed.
Print Assumptions C07_blacklist_update_frame.

Example C07_guards :
  let s := mkBridge (mkBank [(10, [(1001, 100000000000000000000000)])] []) [] [] [] [] [] [1001] true [] None 11 [10] in
  lock_or_burn s true 10 1 5 1001 LOCK_GAS_COST = Err 1.
Proof. vm_compute. reflexivity. Qed.
