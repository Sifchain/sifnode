(* C13 — margin positions agree with pool totals and are liquidated only when unhealthy. *)
From Coq Require Import ZArith List Bool.
From Sif Require Import Base.Outcome Base.SdkMath Base.Store Base.Bank Model.Margin Proofs.MarginProofs Proofs.MarginLoop.
Import ListNotations.
Local Open Scope Z_scope.

(* SumInv s: for every pool and each side, custody recorded = sum of the custody of that pool's positions,
   liabilities recorded = sum of their liabilities; open-position counter = number of stored positions. *)

(* ---- Open ---- *)
(* an accepted Open keeps SumInv, moves exactly the stated collateral from the trader to the module account (no other
   bank operation), stores one new position under a fresh id, which lives on exactly one pool (one asset native, the
   other the pool's: after the fix of finding F-17), with the stated collateral amount, whose health on the state
   the transaction leaves behind exceeds the safety factor *)
Theorem C13_open : forall s hl signer coll borrow amt lev c' u,
  SumInv s -> find_mtp s signer 0 = None -> find_mtp s signer (ms_count s + 1) = None ->
  open_msg s hl signer coll borrow amt lev = (c', Ok u) ->
  let a := if coll =? ROWAN then borrow else coll in
  let M := c_mtp c' in
  SumInv (c_s c') /\
  find_mtp (c_s c') signer (ms_count s + 1) = Some M /\ on_pool a M /\
  m_coll_asset M = coll /\ m_cust_asset M = borrow /\ m_coll_amt M = amt /\
  send (ms_bank s) signer CLP_MODULE coll amt = Some (ms_bank (c_s c')) /\
  (exists lr, mtp_health (c_s c') a M (c_pool c') = Ok lr /\ mp_safety (ms_params s) < lr) /\
  get a (ms_pools (c_s c')) = Some (c_pool c').
Proof. intros s hl signer coll borrow amt lev c' u HS _. exact (open_preserves s hl signer coll borrow amt lev c' u HS). Qed.
Print Assumptions C13_open.

(* ---- Close / AdminClose ---- *)
(* hypotheses on the position closed: it lives on one pool, and the module account holds at least its custody
   (C01), so the fund payment of an incremental interest payment cannot fail half way; percentages in [0,1] *)
Theorem C13_close : forall s signer id c' r,
  SumInv s -> pct_ok s -> (forall m, find_mtp s signer id = Some m -> position_ok s signer id m) ->
  close_msg s signer id = (c', Ok r) -> SumInv (c_s c').
Proof.
  intros s signer id c' r HS Hp Hpos H.
  destruct (close_msg_spec _ _ _ _ _ HS Hp (fun m _ Hf _ => Hpos m Hf) H) as (_ & _ & _ & _ & _ & HS' & _). exact HS'.
Qed.
Print Assumptions C13_close.

(* MsgClose looks the position up under the signer's own address: nobody closes somebody else's position with it *)
Theorem C13_close_needs_owner : forall s signer id c' r,
  close_msg s signer id = (c', Ok r) -> exists m, find_mtp s signer id = Some m.
Proof. intros s signer id c' r. unfold close_msg. destruct (find_mtp s signer id) as [m|]; [eauto|discriminate]. Qed.
Print Assumptions C13_close_needs_owner.

(* AdminClose (healthy or not) succeeds only for a margin administrator *)
Theorem C13_admin_close : forall s adm addr id tf c' r,
  SumInv s -> pct_ok s -> (forall m, find_mtp s addr id = Some m -> position_ok s addr id m) ->
  admin_close_msg s adm addr id tf = (c', Ok r) -> SumInv (c_s c') /\ adm = true.
Proof.
  intros s adm addr id tf c' r HS Hp Hpos H.
  destruct (admin_close_msg_spec _ _ _ _ _ _ _ HS Hp (fun m _ Hf _ => Hpos m Hf) H) as (-> & _ & _ & _ & _ & _ & HS' & _). auto.
Qed.
Print Assumptions C13_admin_close.

(* what a completed close leaves behind: the position is gone from every sum (tot g s' = tot g s - g m for EVERY
   function g of a position, e.g. its custody, its liabilities, 1), the pool totals drop by exactly its share *)
Theorem C13_close_removes_everything : forall s a p m addr id s',
  SumInv s -> get a (ms_pools s) = Some p -> find_mtp s addr id = Some m -> on_pool a m ->
  Closed (mkCtx s p m a addr id) s' -> SumInv s'.
Proof. exact Closed_SumInv. Qed.
Print Assumptions C13_close_removes_everything.

(* ---- BeginBlock: one position ---- *)
(* whatever happens to a position (interest only, liquidation, error, panic under recover()) the loop invariant —
   in-memory pool = sums over the stored positions, other pools and the counter agree — is kept (after the fix of
   finding F-9); it is liquidated only if the health computed for it is at most the safety factor *)
Theorem C13_process_position : forall a s p m addr id c' o,
  process_mtp (mkCtx s p m a addr id) = (c', o) ->
  epoch_position s = 0 ->
  LoopInv a s p -> find_mtp s addr id = Some m -> on_pool a m -> id <> 0 -> pct_ok s ->
  0 <= m_cust_amt m <= bal (ms_bank s) CLP_MODULE (m_cust_asset m) ->
  LoopInv a (c_s c') (c_pool c') /\
  (forall h, o = Ok h -> h <= mp_safety (ms_params s)).
Proof.
  intros a s p m addr id c' o H Hep HL Hf Hon Hid Hp Hfunds.
  destruct (process_mtp_spec _ _ _ _ _ _ _ _ H Hep HL Hf Hon Hid Hp Hfunds) as (A & B & _). auto.
Qed.
Print Assumptions C13_process_position.

(* ---- BeginBlock: a whole pool, under per-step conditions: steps_ok states per step that the listed position is still
   stored as listed when its turn comes and that the module account covers its custody. C13_begin_block_pool below
   discharges them from a property of the starting state (a step writes only its own key, and C01 holds) ---- *)
Theorem C13_begin_block_pool_partial : forall s asset pool new_rate s' closed,
  SumInv s -> get asset (ms_pools s) = Some pool -> asset <> ROWAN ->
  begin_block_pool s asset pool new_rate = Ok (s', closed) ->
  steps_ok asset (bb_s1 s asset pool new_rate) (bb_p1 pool new_rate) (bb_list (bb_s1 s asset pool new_rate) asset) ->
  SumInv s' /\ (forall addr id h, In (addr, id, h) closed -> exists st0, h <= mp_safety (ms_params st0)).
Proof. exact begin_block_pool_preserves. Qed.
Print Assumptions C13_begin_block_pool_partial.

(* ---- BeginBlock: a whole pool, with no condition on the intermediate states of the loop. What the pass relies on is a
   property of the state it starts from (BBReady): position stores in key order, non-negative custody amounts and pool
   balances, the module account covers the pool's balance + custody on both sides, the block is an epoch boundary, fund
   percentage within [0,1], fund addresses and position owners are not the module account, ids non-zero, every position
   on exactly one pool. Proved through (A) a frame property of every keeper function - it leaves all other stored
   positions, parameters and height alone -, (B) non-negativity of what sdk.Uint arithmetic writes, (C) the gap theorem
   of C01 for the position step. *)
Theorem C13_begin_block_pool : forall s asset pool new_rate s' closed,
  SumInv s -> get asset (ms_pools s) = Some pool -> asset <> ROWAN -> BBReady s asset pool ->
  begin_block_pool s asset pool new_rate = Ok (s', closed) ->
  SumInv s' /\ (forall addr id h, In (addr, id, h) closed -> exists st0, h <= mp_safety (ms_params st0)).
Proof. exact begin_block_pool_full. Qed.
Print Assumptions C13_begin_block_pool.
(* the frame: processing one position changes no other stored position, no parameter, not the height *)
Theorem C13_position_step_frame : forall c c' o, process_mtp c = (c', o) -> FR c c'.
Proof. exact frames_process_mtp. Qed.
Print Assumptions C13_position_step_frame.

(* interest payments keep the position and the pool linked: same custody moved on both *)
Theorem C13_interest_keeps_link : forall i c c' o li,
  handle_interest_payment i c = (c', o) -> interest_hyps c -> Link true li c ->
  match o with Panic => True | Err _ => False | Ok _ => Keeps li c c' end.
Proof. intros i c c' o li H Hh L. pose proof (handle_interest_spec i c c' o li H Hh L) as HS. destruct o; [exact (proj1 HS)|exact HS..]. Qed.
Print Assumptions C13_interest_keeps_link.

(* the state of the examples: one pool, one position (owner 12); bank and parameters vary *)
Definition ex_mtp : mtp := mkMtp 0 1000 1000 0 0 0 1 1999 (2 * PREC) 0.
Definition ex_pool : mpool := mkMPool 1000000 2000000 1000 0 0 1999 0 0 0 0 PREC 1 10.
Definition ex_st (b : bank) (ps : mparams) : mstate := mkMState b [(1, ex_pool)] [(12, [(1, ex_mtp)])] 1 1 7 ps [] 0 [] 0.
Lemma ex_st_inv b ps : SumInv (ex_st b ps).
Proof.
  split; [|reflexivity]. apply (get_all (fun a p => a <> ROWAN -> pool_agrees (ex_st b ps) a p)).
  constructor; [|constructor]. intros _. vm_compute. repeat split; reflexivity.
Qed.
Lemma ex_st_shape : shape ex_mtp.
Proof. split; [vm_compute; discriminate|left; split; reflexivity]. Qed.
Lemma ex_st_ready b ps :
  pct_ok (ex_st b ps) -> funds_not_module (ex_st b ps) ->
  q_eb ex_pool + q_ec ex_pool <= bal b CLP_MODULE 1 -> fnat ex_pool <= bal b CLP_MODULE ROWAN -> MReady (ex_st b ps).
Proof.
  intros Hp Hf He Hn. split; [split; [exists 0; cbn; auto with zarith|constructor; [exists 0; cbn; auto with zarith|constructor]]|].
  split; [apply (stored_all (fun _ _ m => 0 <= m_cust_amt m)); constructor; [vm_compute; discriminate|constructor]|].
  split.
  { apply (stored_all (fun addr id m => id <> 0 /\ addr <> CLP_MODULE /\ shape m)). constructor; [|constructor].
    split; [discriminate|]. split; [vm_compute; discriminate|exact ex_st_shape]. }
  split; [exact Hp|]. split; [exact Hf|]. split; [exists 0; cbn; auto with zarith|]. split; [|cbn [ex_st ms_pools ms_bank sumf fold_right snd]; rewrite Z.add_0_r; exact Hn].
  apply (get_all (fun a p => a <> ROWAN /\ 0 <= q_nb p /\ 0 <= q_eb p /\ q_eb p + q_ec p <= bal b CLP_MODULE a)). constructor; [|constructor].
  split; [discriminate|]. split; [vm_compute; discriminate|]. split; [vm_compute; discriminate|exact He].
Qed.

(* a concrete, non-trivial state meets the hypotheses: one pool, one position, a liquidation *)
Definition ex_bank : bank := mkBank [(1, [(0, 5000000); (1, 5000000)])] [].
Definition ex_params : mparams := mkMParams (2 * PREC) (105 * PREC / 100) 1 false 0 21 0 20 [1] [] false 100 true 0 0 1.
Lemma ex_ready : MReady (ex_st ex_bank ex_params).
Proof. apply ex_st_ready; vm_compute; try split; discriminate. Qed.

Example C13_example :
  let m := mkMtp 0 1000 1000 0 0 0 1 1999 (2 * PREC) 0 in
  let p := mkMPool 1000000 2000000 1000 0 0 1999 0 0 0 0 PREC 1 10 in
  let ps := mkMParams (2 * PREC) (105 * PREC / 100) 1 false 0 21 0 20 [1] [] false 100 true 0 0 1 in
  let s := mkMState (mkBank [(1, [(0, 5000000); (1, 5000000)])] []) [(1, p)] [(12, [(1, m)])] 1 1 7 ps [] 0 [] 0 in
  SumInv s /\ position_ok s 12 1 m /\ on_pool 1 m /\ epoch_position s = 0 /\
  exists c' h, process_mtp (mkCtx s p m 1 12 1) = (c', Ok h) /\ h <= mp_safety ps /\ find_mtp (c_s c') 12 1 = None.
Proof.
  cbv zeta. split; [exact (ex_st_inv ex_bank ex_params)|]. split; [|split; [exact ex_st_shape|split; [reflexivity|]]].
  - split; [exact ex_st_shape|]. split; [discriminate|]. split; vm_compute; discriminate.
  - remember (process_mtp _) as r eqn:E; run_once E; subst r. eexists _, _. split; [reflexivity|]. split; vm_compute; [discriminate|reflexivity].
Qed.

(* non-vacuity of the pass theorem: the state of C13_example is ready, and the pass liquidates its position *)
Example C13_pass_example :
  let m := mkMtp 0 1000 1000 0 0 0 1 1999 (2 * PREC) 0 in
  let p := mkMPool 1000000 2000000 1000 0 0 1999 0 0 0 0 PREC 1 10 in
  let ps := mkMParams (2 * PREC) (105 * PREC / 100) 1 false 0 21 0 20 [1] [] false 100 true 0 0 1 in
  let s := mkMState (mkBank [(1, [(0, 5000000); (1, 5000000)])] []) [(1, p)] [(12, [(1, m)])] 1 1 7 ps [] 0 [] 0 in
  BBReady s 1 p /\
  exists s' h, begin_block_pool s 1 p (PREC, 1, 10) = Ok (s', [(12, 1, h)]) /\ all_mtps s' = [].
Proof.
  cbv zeta. split; [exact (mready_bbready _ 1 ex_pool (ex_st_inv ex_bank ex_params) ex_ready eq_refl eq_refl)|].
  remember (begin_block_pool _ _ _ _) as r eqn:E; run_once E; subst r. eexists _, _. split; reflexivity.
Qed.

(* ---- BeginBlock as a whole: all pools of the block in turn. MReady is a property of the state at the start of the
   block (key order of the position and pool stores, non-negative custody amounts and balances, every position has a
   non-zero id, an owner other than the module account and exactly one native asset, fund percentage in [0,1], fund
   addresses other than the module account, and the module account covers each pool's external balance + custody and the
   sum over all pools of native balance + custody); it holds again afterwards, so the theorem applies block after block. *)
Theorem C13_begin_block : forall s rates s' closed,
  SumInv s -> MReady s -> begin_block_margin s rates = Ok (s', closed) ->
  SumInv s' /\ MReady s' /\ (forall addr id h, In (addr, id, h) closed -> exists st0, h <= mp_safety (ms_params st0)).
Proof.
  intros s rates s' closed HS HM H. destruct (begin_block_margin_ready s rates s' closed HS HM H) as (A1 & A2 & _ & A4).
  split; [exact A1|]. split; [exact A2|]. intros addr id h Hin. exists s. exact (A4 _ _ _ Hin).
Qed.
Print Assumptions C13_begin_block.

Example C13_block_example :
  let m := mkMtp 0 1000 1000 0 0 0 1 1999 (2 * PREC) 0 in
  let p := mkMPool 1000000 2000000 1000 0 0 1999 0 0 0 0 PREC 1 10 in
  let ps := mkMParams (2 * PREC) (105 * PREC / 100) 1 false 0 21 0 20 [1] [] false 100 true 0 0 1 in
  let s := mkMState (mkBank [(1, [(0, 5000000); (1, 5000000)])] []) [(1, p)] [(12, [(1, m)])] 1 1 7 ps [] 0 [] 0 in
  MReady s /\ exists s' h, begin_block_margin s [(PREC, 1, 10)] = Ok (s', [(12, 1, h)]) /\ all_mtps s' = [].
Proof.
  cbv zeta. split; [exact ex_ready|].
  remember (begin_block_margin _ _) as r eqn:E; run_once E; subst r. eexists _, _. split; reflexivity.
Qed.

(* ---- histories: margin transactions between the blocks. What C13_begin_block asks of the state at the start of a block is
   kept by MsgOpen, MsgClose and MsgAdminClose too (and by a refused transaction, which only pays its fee), together with
   the sums invariant and the module account's gap (C01): over any sequence of delivered margin transactions and blocks the
   premise is one on the first state. Asked along the run: nobody signs as the module account, and when a position is
   opened the id the counter hands out is free (ids come from the counter; Check/Margin.v evaluates it on observed states). *)
From Sif Require Import Proofs.MarginReady.

Theorem C13_close_keeps_ready : forall s signer id c' r,
  SumInv s -> MReady s -> close_msg s signer id = (c', Ok r) ->
  SumInv (c_s c') /\ MReady (c_s c') /\ gapN (c_s c') = gapN s /\ (forall a', a' <> ROWAN -> gapE (c_s c') a' = gapE s a').
Proof. exact close_ready. Qed.
Print Assumptions C13_close_keeps_ready.

Theorem C13_admin_close_keeps_ready : forall s adm addr id tf c' r,
  SumInv s -> MReady s -> admin_close_msg s adm addr id tf = (c', Ok r) ->
  adm = true /\ SumInv (c_s c') /\ MReady (c_s c') /\ gapN (c_s c') = gapN s /\ (forall a', a' <> ROWAN -> gapE (c_s c') a' = gapE s a').
Proof. exact admin_close_ready. Qed.
Print Assumptions C13_admin_close_keeps_ready.

Theorem C13_open_keeps_ready : forall s hl signer coll borrow amt lev c' u,
  SumInv s -> MReady s -> signer <> CLP_MODULE -> 0 <= ms_count s -> find_mtp s signer (ms_count s + 1) = None ->
  open_msg s hl signer coll borrow amt lev = (c', Ok u) ->
  SumInv (c_s c') /\ MReady (c_s c') /\ gapN (c_s c') = gapN s /\ (forall a', a' <> ROWAN -> gapE (c_s c') a' = gapE s a').
Proof. exact open_ready. Qed.
Print Assumptions C13_open_keeps_ready.

Theorem C13_history : forall es s s',
  SumInv s -> MReady s -> mrun_ok s es -> mrun s es = Some s' ->
  SumInv s' /\ MReady s' /\ gapN s' = gapN s /\ (forall a, a <> ROWAN -> gapE s' a = gapE s a).
Proof. exact margin_history. Qed.
Print Assumptions C13_history.

(* non-vacuity: one open position (owner 12); account 13 opens a second one, 12 closes its own, a block passes, the
   administrator closes the second one with the fund payment — the premises hold, the run ends without positions, and the
   module account's gap is what it was (4000000 natively, 2998001 in the pool's token) *)
Definition ex_hist_state : mstate :=
  let m := mkMtp 0 1000 1000 0 0 0 1 1999 (2 * PREC) 0 in
  let p := mkMPool 1000000 2000000 1000 0 0 1999 0 0 0 0 PREC 1 10 in
  let ps := mkMParams (2 * PREC) (105 * PREC / 100) 1 false 0 21 0 20 [1] [] false 100 true (PREC / 200) 1 200 in
  mkMState (mkBank [(1, [(0, 5000000); (1, 5000000)]); (13, [(0, 100000); (1, 100000)])] []) [(1, p)] [(12, [(1, m)])] 1 1 7 ps [] 0 [] 0.
Definition ex_hist : list mstep :=
  [SMsg 10 false (MOpen 13 0 1 5000 (2 * PREC)); SMsg 10 false (MClose 12 1); SBlock [(PREC, 1, 10)]; SMsg 10 false (MAdminClose true 20 13 2 true)].

Example C13_history_example :
  SumInv ex_hist_state /\ MReady ex_hist_state /\ mrun_ok ex_hist_state ex_hist /\
  (match mrun ex_hist_state ex_hist with Some s' => Some (all_mtps s', ms_open s', gapN s', gapE s' 1) | None => None end) = Some ([], 0, 4000000, 2998001) /\
  (gapN ex_hist_state, gapE ex_hist_state 1) = (4000000, 2998001).
Proof.
  split; [exact (ex_st_inv (ms_bank ex_hist_state) (ms_params ex_hist_state))|].
  split; [apply (ex_st_ready (ms_bank ex_hist_state) (ms_params ex_hist_state)); vm_compute; try split; discriminate|].
  (* each transaction and the block are run once; what is asked along the run is then read off the states they leave *)
  unfold ex_hist. cbn [mrun mrun_ok].
  remember (mstep_apply ex_hist_state _) as r1 eqn:E; run_once E; subst r1. cbv beta iota.
  remember (mstep_apply _ (SMsg 10 false (MClose 12 1))) as r2 eqn:E; run_once E; subst r2. cbv beta iota.
  remember (mstep_apply _ (SBlock _)) as r3 eqn:E; run_once E; subst r3. cbv beta iota.
  remember (mstep_apply _ (SMsg 10 false (MAdminClose true 20 13 2 true))) as r4 eqn:E; run_once E; subst r4. cbv beta iota.
  vm_compute. repeat split; discriminate.
Qed.
