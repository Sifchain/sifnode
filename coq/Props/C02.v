(* C02 — pool units = sum of provider units; removals never exceed holdings. *)
From Coq Require Import ZArith List Bool.
From Sif Require Import Base.Outcome Base.Store Base.Bank Model.ClpCalc Model.ClpTypes Model.ClpState Model.ClpMsgs
  Proofs.ClpInv Proofs.ClpUnits Proofs.ClpUnitsHist.
Import ListNotations.
Local Open Scope Z_scope.

(* the units calculator adds to the pool total exactly what it gives the provider (any depths, amounts,
   fee and ratio-shifting rates), in every branch except the empty-side one *)
Theorem C02_calc_total : forall P R A r a fs fb pm pu lpu st sw,
  calculate_pool_units P R A r a fs fb pm = Ok (pu, lpu, st, sw) ->
  symmetry_state A a R r <> EmptyPool -> pu = P + lpu.
Proof. exact calculate_pool_units_total. Qed.
Print Assumptions C02_calc_total.

(* AddLiquidity (symmetric or asymmetric): pool total and the signer's record move together, no other
   provider's units change *)
Theorem C02_add : forall s sg a n e s',
  add_liquidity s sg a n e = Ok s' ->
  (forall p, get a (cs_pools s) = Some p ->
     symmetry_state (p_eb p + p_el p) e (p_nb p + p_nl p) n <> EmptyPool) ->
  pool_units_of s' a - pool_units_of s a = lp_units_of s' a sg - lp_units_of s a sg /\
  forall addr, addr <> sg -> lp_units_of s' a addr = lp_units_of s a addr.
Proof. exact add_liquidity_acct. Qed.
Print Assumptions C02_add.

(* the excluded branch really breaks the accounting on the unchanged code (finding F-14) *)
Theorem C02_add_to_one_sided_pool_refuted :
  exists s', add_liquidity f14_state 10 1 5 5 = Ok s' /\
             pool_units_of s' 1 = 5 /\ lp_units_of s' 1 10 + lp_units_of s' 1 11 = 1005.
Proof. exact add_to_one_sided_pool_refuted. Qed.
Print Assumptions C02_add_to_one_sided_pool_refuted.

(* removal by basis points / by units: burns exactly the difference of the remover's record, never more
   than held, leaves every other provider untouched *)
Theorem C02_remove : forall s sg a w asym s',
  wf (lps_for s a) -> remove_liquidity s sg a w asym = Ok s' ->
  pool_units_of s' a - pool_units_of s a = lp_units_of s' a sg - lp_units_of s a sg /\
  0 <= lp_units_of s a sg - lp_units_of s' a sg <= lp_units_of s a sg /\ 0 <= lp_units_of s' a sg /\
  forall addr, addr <> sg -> lp_units_of s' a addr = lp_units_of s a addr.
Proof. exact remove_liquidity_acct. Qed.
Print Assumptions C02_remove.

Theorem C02_remove_units : forall s sg a u s',
  wf (lps_for s a) -> remove_liquidity_units s sg a u = Ok s' ->
  pool_units_of s' a - pool_units_of s a = lp_units_of s' a sg - lp_units_of s a sg /\
  0 <= lp_units_of s a sg - lp_units_of s' a sg <= lp_units_of s a sg /\ 0 <= lp_units_of s' a sg /\
  forall addr, addr <> sg -> lp_units_of s' a addr = lp_units_of s a addr.
Proof. exact remove_liquidity_units_acct. Qed.
Print Assumptions C02_remove_units.

(* ---- over histories: in every state reached by any sequence of user transactions (accepted or refused), every
   pool's units equal the sum of its providers' units, and an asset without a pool has no provider records.
   Side conditions along the history (units_run): the pool store stays sorted, and no liquidity is added to a pool
   with an empty side (finding F-14, refuted above) ---- *)
Theorem C02_history : forall txs s, units_run s txs -> UInv s -> UInv (run_txs s txs).
Proof. exact run_txs_UInv. Qed.
Print Assumptions C02_history.

Theorem C02_message_keeps_units : forall s m s',
  wf (cs_pools s) -> UInv s -> not_one_sided_add s m -> handle s m = Ok s' -> UInv s'.
Proof. exact handle_UInv. Qed.
Print Assumptions C02_message_keeps_units.

(* with a premise on the first state only (pool store in key order, non-negative balances): the one condition left along
   the run is that no liquidity is added to a pool with an empty side (finding F-14) *)
From Sif Require Proofs.ClpGood.
Theorem C02_history_full : forall txs s,
  Sif.Proofs.ClpGood.GInv s -> Sif.Proofs.ClpGood.no_one_sided_run s txs -> UInv s -> UInv (run_txs s txs).
Proof. exact Sif.Proofs.ClpGood.run_txs_UInv_full. Qed.
Print Assumptions C02_history_full.

Example C02_history_example :
  let s := mkClp (mkBank [(10, [(0, 9000000000000000000000); (1, 9000000000000000000000)]);
                          (11, [(0, 9000000000000000000000); (1, 9000000000000000000000)])] [])
        [] [] [] 0 [] [] 5 (mkCP 0 3000000000000000 [] 0 0 [(0, 7); (1, 7)] [10] 0 false [] 0) in
  let txs := [(1000, MCreatePool 10 1 5000000000000000000000 7000000000000000000000);
              (1000, MAddLiquidity 11 1 3000000000000000000 0); (1000, MSwap 10 0 1 1000000000000000000 0);
              (1000, MRemoveLiquidityUnits 11 1 1000000000000000)] in
  UInv s /\ units_run s txs /\ usum (run_txs s txs) 1 = pool_units_of (run_txs s txs) 1 /\ 5000000000000000000000 < usum (run_txs s txs) 1.
Proof.
  cbv zeta. cbn [units_run run_txs].
  (* the statement mentions the state after the k-th transaction many times over: each transaction is run once, on
     the value the one before it left *)
  remember (fst (deliver _ _ (MCreatePool _ _ _ _))) as s1 eqn:E; run_once E; subst s1.
  remember (fst (deliver _ _ (MAddLiquidity _ _ _ _))) as s2 eqn:E; run_once E; subst s2.
  remember (fst (deliver _ _ (MSwap _ _ _ _ _))) as s3 eqn:E; run_once E; subst s3.
  remember (fst (deliver _ _ (MRemoveLiquidityUnits _ _ _))) as s4 eqn:E; run_once E; subst s4.
  split; [intros a; reflexivity|]. split; [|split; vm_compute; reflexivity].
  repeat split; try (exists 0; vm_compute; tauto).
  intros p Hg. vm_compute in Hg. injection Hg as <-. vm_compute. discriminate.
Qed.

(* "net of units already queued for removal": the units a provider has queued against a pool are the sum over its requests
   against THAT pool, whatever requests against other pools lie before, between or after them in the store's key order;
   a removal that passes the gate leaves the queued units with the provider. (The queue itself: see Model/ClpQueue.v on
   why it stays empty on a running chain; the keeper's function is compared on queues built through the message server.) *)
From Coq Require Import Permutation.
From Sif Require Import Model.ClpQueue Proofs.QueueProofs.

Theorem C02_queued_units_order_free : forall lp asset l1 l2 q1 q2,
  Permutation l1 l2 -> queued_units lp asset l1 = Ok q1 -> queued_units lp asset l2 = Ok q2 -> q1 = q2.
Proof. exact queued_units_perm. Qed.
Print Assumptions C02_queued_units_order_free.

Theorem C02_queued_units_other_pools : forall lp asset reqs others q,
  Forall (fun r => fst r <> asset) others ->
  queued_units lp asset reqs = Ok q -> forall mixed, Permutation mixed (others ++ reqs) ->
  forall q', queued_units lp asset mixed = Ok q' -> q' = q.
Proof. exact queued_units_other_pools. Qed.
Print Assumptions C02_queued_units_other_pools.

Theorem C02_removal_net_of_queued : forall wunits lp queued, removal_fits wunits lp queued = Ok true -> wunits + queued <= lp.
Proof. exact removal_fits_bound. Qed.
Print Assumptions C02_removal_net_of_queued.

Example C02_queue_example :
  queued_units 1000 2 [(1, 5000); (2, 2500); (1, 10000); (2, 5000)] = Ok 750 /\
  queued_units 1000 2 [(2, 5000); (2, 2500)] = Ok 750 /\
  removal_fits 250 1000 750 = Ok true /\ removal_fits 251 1000 750 = Ok false.
Proof. vm_compute. repeat split; reflexivity. Qed.
