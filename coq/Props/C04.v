(* C04 — no free value: AMM round trips never profit and never dilute other providers. *)
From Coq Require Import ZArith List Bool QArith Qabs.
From Sif Require Import Base.Outcome Base.SdkMath Base.Store Base.Bank Model.ClpCalc Model.ClpTypes Model.ClpState Model.ClpMsgs
  Proofs.ClpInv Proofs.SwapProofs Proofs.NoFreeValue.
Import ListNotations.
Local Open Scope Z_scope.

(* ---- clause 1: swap, then swap the proceeds back ---- *)
(* on the calculator, for all depths (liabilities included), amounts, fee rates in [0,1] on either leg and
   ratio-shifting rates >= 0; degenerate (empty side / zero amount) inputs included *)
Theorem C04_swap_roundtrip_calc : forall tr X x Y r f f' y fee x' fee',
  0 <= X -> 0 <= x -> 0 <= Y -> 0 <= r -> 0 <= f <= PREC -> 0 <= f' <= PREC ->
  calc_swap_result tr X x Y r f = Ok (y, fee) -> y < Y ->
  calc_swap_result (negb tr) (Y - y) y (X + x) r f' = Ok (x', fee') ->
  x' <= x.
Proof.
  intros tr X x Y r f f' y fee x' fee' HX Hx HY Hr Hf Hf' H1 HyY H2.
  apply (swap_roundtrip_calc_le tr X x Y r f f' y fee y x' fee'); try assumption.
  split; [exact (calc_swap_result_nonneg _ _ _ _ _ _ _ _ H1)|apply Z.le_refl].
Qed.
Print Assumptions C04_swap_roundtrip_calc.

(* on the message handler, native <-> external *)
Theorem C04_swap_roundtrip : forall s sg sent recv amt mn s' emit mn' s'' back,
  rates_ok (cs_params s) ->
  (forall a p, get a (cs_pools s) = Some p -> pool_nonneg p) ->
  (sent = ROWAN \/ recv = ROWAN) -> sent <> recv ->
  swap s sg sent recv amt mn = Ok (s', emit) ->
  swap s' sg recv sent emit mn' = Ok (s'', back) ->
  back <= amt.
Proof. exact swap_roundtrip_single. Qed.
Print Assumptions C04_swap_roundtrip.

(* external -> external through the native token and back: four legs, two pools *)
Theorem C04_swap_roundtrip_double : forall s sg sent recv amt mn s' emit mn' s'' back,
  rates_ok (cs_params s) ->
  (forall a p, get a (cs_pools s) = Some p -> pool_nonneg p) ->
  sent <> ROWAN -> recv <> ROWAN -> sent <> recv ->
  swap s sg sent recv amt mn = Ok (s', emit) ->
  swap s' sg recv sent emit mn' = Ok (s'', back) ->
  back <= amt.
Proof. exact swap_roundtrip_double. Qed.
Print Assumptions C04_swap_roundtrip_double.

(* ---- clause 2, first part: add (r, a), remove the units received ---- *)
(* the side that was (partly) swapped internally — both sides of a symmetric add — returns at most what
   was put in, up to one base unit and 1e-18 relative; for ANY internal swap amount the calculator picks *)
Theorem C04_add_remove_side : forall P R A r a fs fb pm pu l st sw lpu wn we lft,
  0 < P -> 0 < R -> 0 < A -> 0 <= r -> 0 <= a ->
  calculate_pool_units P R A r a fs fb pm = Ok (pu, l, st, sw) ->
  calculate_withdrawal_from_units pu (R + r) (A + a) lpu l = Ok (wn, we, lft) ->
  match st with
  | SellNative => returns_at_most r wn
  | BuyNative => returns_at_most a we
  | NoSwap => returns_at_most r wn /\ returns_at_most a we
  end.
Proof. exact add_remove_calc. Qed.
Print Assumptions C04_add_remove_side.

Theorem C04_add_remove_not_both : forall P R A r a fs fb pm pu l st sw lpu wn we lft,
  0 < P -> 0 < R -> 0 < A -> 0 <= r -> 0 <= a ->
  calculate_pool_units P R A r a fs fb pm = Ok (pu, l, st, sw) ->
  calculate_withdrawal_from_units pu (R + r) (A + a) lpu l = Ok (wn, we, lft) ->
  ~ (r + 1 + r / (PREC - 1) < wn /\ a + 1 + a / (PREC - 1) < we).
Proof. exact add_remove_not_both. Qed.
Print Assumptions C04_add_remove_not_both.

(* ---- clause 2, second part ("no better than swapping"): PARTIAL ----
   Proved: (i) the algebraic core of "the add+remove is the swap of s": if the deposit is symmetric after an
   internal swap of s for e, (r-s)/(R+s) = (a+e)/(A-e), then the share (r-s)/(R+r) the add earns, taken of the
   external side A+a, is a+e (stated cross-multiplied; of the native side R+r it is r-s by definition);
   (ii) "symmetric after the swap at the public price with fee f and ratio shift p" is a quadratic in s;
   (iii) the calculator's closed forms are (z - b)/(2a) of exactly that quadratic, z the integer square
   root of the floored discriminant. Not proved: the numeric bound with the dust of DESIGN.md 4/C04
   (it needs lower bounds on swap and withdrawal results); that bound is monitored on every run. *)
Theorem C04_add_remove_vs_swap_partial_exact : forall (R A r a s e : Q),
  ((r - s) * (A - e) == (a + e) * (R + s) -> (A + a) * (r - s) == (a + e) * (R + r))%Q.
Proof. exact asym_add_remove_exact. Qed.
Print Assumptions C04_add_remove_vs_swap_partial_exact.

Theorem C04_add_remove_vs_swap_partial_sell_quadratic : forall (R A r a s f p : Q),
  ((r - s) * (A * (R + s) - s * A * ((1 + p) * (1 - f))) - (a * (R + s) + s * A * ((1 + p) * (1 - f))) * (R + s)
   == - ((a + A) * s * s + sell_w R A r a f p * s + R * (a * R - A * r)))%Q.
Proof. exact sell_native_quadratic. Qed.
Print Assumptions C04_add_remove_vs_swap_partial_sell_quadratic.

Theorem C04_add_remove_vs_swap_partial_sell_root : forall (R A r a f p s : Q),
  nat_swap_amount_rat R A r a f p = Ok s ->
  exists (D : Q) (z : Z),
    (D == sell_w R A r a f p * sell_w R A r a f p - 4 * (a + A) * (R * (a * R - A * r)))%Q /\
    approx_sqrt D = Ok z /\ ~ ((a + A) * 2 == 0)%Q /\
    (s == Qabs ((inject_Z z - sell_w R A r a f p) / (2 * (a + A))))%Q.
Proof. intros R A r a f p s. exact (nat_swap_amount_rat_root R A r a f p s). Qed.
Print Assumptions C04_add_remove_vs_swap_partial_sell_root.

Theorem C04_add_remove_vs_swap_partial_buy_quadratic : forall (R A r a s f p : Q),
  ((1 + p) * ((a - s) * (R * (A + s)) - (r * (A + s)) * (A + s)) - ((a - s) * (s * R * (1 - f)) + (s * R * (1 - f)) * (A + s))
   == - ((r + R) * (1 + p) * s * s + buy_w R A r a f p * s + A * (r * A - R * a) * (1 + p)))%Q.
Proof. exact buy_native_quadratic. Qed.
Print Assumptions C04_add_remove_vs_swap_partial_buy_quadratic.

Theorem C04_add_remove_vs_swap_partial_buy_root : forall (R A r a f p s : Q),
  ext_swap_amount_rat R A r a f p = Ok s ->
  exists (D : Q) (z : Z),
    (D == buy_w R A r a f p * buy_w R A r a f p - 4 * ((r + R) * (1 + p)) * (A * (r * A - R * a) * (1 + p)))%Q /\
    approx_sqrt D = Ok z /\ ~ (2 * (p + 1) * (r + R) == 0)%Q /\
    (s == Qabs ((inject_Z z - buy_w R A r a f p) / (2 * ((r + R) * (1 + p)))))%Q.
Proof. intros R A r a f p s. exact (ext_swap_amount_rat_root R A r a f p s). Qed.
Print Assumptions C04_add_remove_vs_swap_partial_buy_root.

(* ---- clause 3: backing per unit sqrt(R*A)/P, compared through its square; ratio shifting off ---- *)
Theorem C04_backing_swap : forall tr X x Y f y fee,
  0 < X -> 0 < x -> 0 < Y -> 0 <= f <= PREC ->
  calc_swap_result tr X x Y 0 f = Ok (y, fee) -> X * Y <= (X + x) * (Y - y).
Proof. exact swap_backing. Qed.
Print Assumptions C04_backing_swap.

(* adds: symmetric adds exactly (no dust); asymmetric adds PARTIAL: under near_root for the internal
   swap amount (s at least the fee-less root: R*A*(R+r) <= (A+a)*(R+s)^2), monitored on every run *)
Theorem C04_backing_add_partial : forall P R A r a fs fb pm pu l st sw,
  0 < P -> 0 < R -> 0 < A -> 0 <= r -> 0 <= a ->
  calculate_pool_units P R A r a fs fb pm = Ok (pu, l, st, sw) ->
  match st with
  | SellNative => near_root R A r a sw -> backing_le R A P (R + r) (A + a) pu
  | BuyNative => near_root A R a r sw -> backing_le R A P (R + r) (A + a) pu
  | NoSwap => backing_le R A P (R + r) (A + a) pu
  end.
Proof. exact add_backing_asymmetric. Qed.
Print Assumptions C04_backing_add_partial.

(* removals: each side keeps its pro-rata share, and the pool its backing, once dust18 = 2 + depth/(1e18-1)
   base units are put back on each side *)
Theorem C04_backing_remove : forall P R A lpu u wn we lft,
  0 < P -> 0 <= R -> 0 <= A -> 0 <= u <= P ->
  calculate_withdrawal_from_units P R A lpu u = Ok (wn, we, lft) ->
  R * (P - u) <= (R - wn + dust18 R) * P /\ A * (P - u) <= (A - we + dust18 A) * P /\
  backing_le R A P (R - wn + dust18 R) (A - we + dust18 A) (P - u).
Proof. exact remove_units_backing. Qed.
Print Assumptions C04_backing_remove.

(* the hypotheses are met by concrete, non-trivial inputs *)
Example C04_example_swap :
  calc_swap_result false 1000000 1000 2000000 0 3000000000000000 = Ok (1993, 5) /\
  calc_swap_result true (2000000 - 1993) 1993 (1000000 + 1000) 0 3000000000000000 = Ok (995, 2).
Proof. split; vm_compute; reflexivity. Qed.

Example C04_example_add_remove :
  calculate_pool_units 1000000 2000000 1000000 50000 0 3000000000000000 3000000000000000 0 = Ok (1012404, 12404, SellNative, 24883) /\
  calculate_withdrawal_from_units 1012404 2050000 1000000 12404 12404 = Ok (25117, 12252, 0) /\
  near_root 2000000 1000000 50000 0 24883 /\
  calc_swap_result false 2000000 (50000 - 25117) 1000000 0 3000000000000000 = Ok (12252, 36).
Proof. split; [vm_compute; reflexivity|]. split; [vm_compute; reflexivity|]. split; [unfold near_root; vm_compute; discriminate|vm_compute; reflexivity]. Qed.

(* margin-enabled pools: a removal (by basis points or by units) that is executed leaves the pool with a health of at least
   the removal-queue threshold — liquidity cannot be pulled from under the open positions *)
From Sif Require Import Proofs.ClpHealth.
Theorem C04_removal_keeps_pool_health : forall s sg a w asym s',
  remove_liquidity s sg a w asym = Ok s' -> existsb (Z.eqb a) (cp_margin (cs_params s)) = true ->
  exists pl', get a (cs_pools s') = Some pl' /\ cp_rq_threshold (cs_params s) <= pool_health (p_nb pl') (p_nl pl') (p_eb pl') (p_el pl').
Proof. exact remove_liquidity_health. Qed.
Print Assumptions C04_removal_keeps_pool_health.
Theorem C04_removal_by_units_keeps_pool_health : forall s sg a u s',
  remove_liquidity_units s sg a u = Ok s' -> existsb (Z.eqb a) (cp_margin (cs_params s)) = true ->
  exists pl', get a (cs_pools s') = Some pl' /\ cp_rq_threshold (cs_params s) <= pool_health (p_nb pl') (p_nl pl') (p_eb pl') (p_el pl').
Proof. exact remove_liquidity_units_health. Qed.
Print Assumptions C04_removal_by_units_keeps_pool_health.
