(* C06 — each bridged Ethereum event is credited at most once, as agreed. *)
From Coq Require Import ZArith List Bool.
From Sif Require Import Base.Outcome Base.Store Base.Bank Model.Bridge Proofs.BridgeProofs.
Import ListNotations.
Local Open Scope Z_scope.

(* one claim message: either nothing is credited (bank and peggy list untouched), or the prophecy was
   pending and is successful afterwards, and exactly the amount of the final claim content (pr_final) is
   created and paid to the recipient named in that content, in "c"+symbol for a lock and in the symbol itself for a burn;
   every other balance and supply is unchanged; the pegged denom is on the peggy list afterwards *)
Theorem C06_claim_effect : forall s perm pid val cid ct s',
  create_claim s perm pid val cid ct = Ok s' ->
  pr_status (old_prophecy s pid) = 0 /\
  exists pr, get pid (br_prophecies s') = Some pr /\
    (forall pid', pid' <> pid -> get pid' (br_prophecies s') = get pid' (br_prophecies s)) /\
    (pr_status pr <> 1 -> br_bank s' = br_bank s /\ br_peggy s' = br_peggy s) /\
    (pr_status pr = 1 ->
       exists ctf, get (pr_final pr) (set cid ct (br_contents s)) = Some ctf /\ 0 <= ct_amount ctf /\
         (ct_type ctf = 1 \/ ct_type ctf = 2) /\ mem (ct_receiver ctf) (br_blocked s) = false /\
         (forall a d, bal (br_bank s') a d = bal (br_bank s) a d + ind ((a =? ct_receiver ctf) && (d =? credit_denom ctf)) (ct_amount ctf)) /\
         (forall d, sup (br_bank s') d = sup (br_bank s) d + ind (d =? credit_denom ctf) (ct_amount ctf)) /\
         (ct_type ctf = 1 -> mem (credit_denom ctf) (br_peggy s') = true)).
Proof. exact create_claim_effect. Qed.
Print Assumptions C06_claim_effect.

(* over any sequence of claim messages, from any validators, about any events, with any contents, in
   any map iteration order: no event is credited twice *)
Theorem C06_at_most_once : forall perm ms s, NoDup (snd (run_claims perm s ms)).
Proof. exact credited_at_most_once. Qed.
Print Assumptions C06_at_most_once.

(* a credited (pegged) denom can thereafter be burned but not locked: lock/burn test the peggy list *)
Theorem C06_pegged_burnable_not_lockable : forall s is_burn sender eth amount symbol ceth s',
  sender <> BRIDGE_MODULE ->
  lock_or_burn s is_burn sender eth amount symbol ceth = Ok s' -> mem symbol (br_peggy s) = is_burn.
Proof. intros s is_burn sender eth amount symbol ceth s' _ H. apply lock_or_burn_guards in H. tauto. Qed.
Print Assumptions C06_pegged_burnable_not_lockable.
