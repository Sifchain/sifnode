(* C08 — privileged messages have no effect unless signed by the matching admin role. *)
From Coq Require Import ZArith List Bool String.
From Sif Require Import Base.Outcome Model.Admin Proofs.AdminProofs Gen.AuthTable.
Import ListNotations.
Local Open Scope Z_scope.

(* the role check found in the source (regenerated by the go/ast extractor on every run: role constant
   of the first guard of every Msg service method of the six Sifchain modules, following delegation into
   keeper methods, and whether anything but parsing / reads precedes it) is the table the theorems use *)
Theorem C08_table_matches_source : gen_auth_table = spec_table.
Proof. vm_compute. reflexivity. Qed.
Print Assumptions C08_table_matches_source.

Theorem C08_thirty_privileged :
  List.length (filter (fun e => match e with (_, _, r, _) => negb (String.eqb r "NONE") end) spec_table) = 30%nat /\
  List.length spec_table = 46%nat.
Proof. split; vm_compute; reflexivity. Qed.

(* for every handler effect whatsoever: without the matching role the message fails and the state is unchanged *)
Theorem C08_reject : forall (St Payload : Type) (effect : St -> Payload -> Outcome St) au st idx signer p r,
  required_role idx = Some r -> holds au r signer = false ->
  handle_priv St Payload effect au st idx signer p = Err 1 /\
  deliver_priv St Payload effect au st idx signer p = (st, false).
Proof. exact reject. Qed.
Print Assumptions C08_reject.

(* holding any set of other roles does not help: [holds] looks only at the required role *)
Theorem C08_separation : forall (St Payload : Type) (effect : St -> Payload -> Outcome St) au st idx signer p r,
  required_role idx = Some r -> holds au r signer = false ->
  (forall r', r' <> r -> True) ->
  fst (deliver_priv St Payload effect au st idx signer p) = st.
Proof. intros St Payload effect au st idx signer p r Hr Hh _. exact (f_equal fst (proj2 (C08_reject St Payload effect au st idx signer p r Hr Hh))). Qed.
Print Assumptions C08_separation.

(* removing a role takes effect for the very next message, and only for that (role, account) *)
Theorem C08_removal_immediate : forall s r a, table_role r = true -> holds (remove_account s r a) r a = false.
Proof. exact removal_immediate. Qed.
Print Assumptions C08_removal_immediate.

Theorem C08_removal_frame : forall s r a r' a',
  table_role r = true -> (r', a') <> (r, a) -> holds (remove_account s r a) r' a' = holds s r' a'.
Proof. exact removal_frame. Qed.
Print Assumptions C08_removal_frame.

Theorem C08_addition_immediate : forall s r a, table_role r = true -> holds (add_account s r a) r a = true.
Proof. exact addition_immediate. Qed.
Print Assumptions C08_addition_immediate.
