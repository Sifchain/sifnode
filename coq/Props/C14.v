(* C14 — genesis export/import is lossless for everything the genesis format carries.
   Partial: theorems for x/clp (pools, providers with unlock requests, reward buckets, reward and distribution
   periods, liquidity-protection and ratio-shifting state), x/dispensation (records of the three statuses,
   distributions, claims) and x/margin (parameters, positions, counters); the other five modules are covered by the
   real export -> import -> export comparison of the check only. *)
From Coq Require Import ZArith List Bool.
From RecordUpdate Require Import RecordUpdate.
From Sif Require Import Base.Outcome Base.Store Base.Bank Model.ClpTypes Model.ClpPolicy Model.Dispensation Model.Margin Model.Genesis
  Proofs.DispProofs Proofs.GenesisProofs.
Import ListNotations.
Local Open Scope Z_scope.

(* Importing the exported clp genesis reproduces every carried store exactly — hence every query over pools,
   providers, buckets, periods and policy parameters answers the same on the new chain — provided the stores are
   in key order (what the KV store guarantees), no provider list is present but empty, and every provider
   record has a non-zero LastUpdatedBlock (SetLiquidityProvider re-bases 0 to the import height; records written
   by a running chain carry the height >= 1 of their last update). *)
Theorem C14_clp_import_export : forall h c, CarriedWF c -> import_clp h (export_clp c) = c.
Proof. exact import_export_clp. Qed.
Print Assumptions C14_clp_import_export.

(* exporting the new chain again yields the identical document *)
Theorem C14_clp_reexport : forall h c, CarriedWF c -> export_clp (import_clp h (export_clp c)) = export_clp c.
Proof. exact reexport_clp. Qed.
Print Assumptions C14_clp_reexport.

(* the same for dispensation: records are filed back under their status prefix, in key order *)
Theorem C14_disp_import_export : forall d, DispWF d -> import_disp (export_disp d) = d.
Proof. exact import_export_disp. Qed.
Print Assumptions C14_disp_import_export.
Theorem C14_disp_reexport : forall d, DispWF d -> export_disp (import_disp (export_disp d)) = export_disp d.
Proof. exact reexport_disp. Qed.
Print Assumptions C14_disp_reexport.

(* x/margin: the document carries the parameters and the open positions. Importing it gives back the parameters, the
   positions and the open counter exactly; the id counter comes back as the highest id among the open positions, which is
   at least every stored id (a new position cannot take the id of an imported one) and at most the old counter. Premises:
   stores in key order without empty inner lists, ids from 1, the open counter counts the stored positions (C13), every
   id at most the id counter. *)
Theorem C14_margin_import_export : forall c, MarginWF c ->
  let c' := import_margin (export_margin c) in
  mc_params c' = mc_params c /\ mc_mtps c' = mc_mtps c /\ mc_open c' = mc_open c /\
  (forall e, In e (flatten (mc_mtps c')) -> fst (snd e) <= mc_count c') /\ 0 <= mc_count c' /\ (0 <= mc_count c -> mc_count c' <= mc_count c).
Proof. exact import_export_margin. Qed.
Print Assumptions C14_margin_import_export.
Theorem C14_margin_reexport : forall c, MarginWF c -> export_margin (import_margin (export_margin c)) = export_margin c.
Proof. exact reexport_margin. Qed.
Print Assumptions C14_margin_reexport.
(* what the margin document does not carry (findings F-19 and F-20): the lifetime counter when the positions opened last
   were closed before the export, and the whitelist *)
Theorem C14_margin_lifetime_counter_refuted : exists c, MarginWF c /\ mc_count (import_margin (export_margin c)) <> mc_count c.
Proof. exact margin_lifetime_counter_refuted. Qed.
Print Assumptions C14_margin_lifetime_counter_refuted.
Theorem C14_margin_whitelist_refuted : exists c, MarginWF c /\ mc_whitelist (import_margin (export_margin c)) <> mc_whitelist c.
Proof. exact margin_whitelist_refuted. Qed.
Print Assumptions C14_margin_whitelist_refuted.

(* the key order assumed of the dispensation tables is kept by every table update of the model *)
Theorem C14_table_order_kept : forall (t : table drec) k v,
  tasc t -> tasc (rset k v t) /\ tasc (rdel k t).
Proof. intros t k v H. split; [apply tasc_rset | apply tasc_rdel]; exact H. Qed.
Print Assumptions C14_table_order_kept.

(* the re-basing of a zero LastUpdatedBlock is the one place where import is not the identity *)
Example C14_lp_rebase :
  let c := mkCC [] [(1, [(10, mkLp 5 [] 0)])] [] [] [] (mkLPS 0 1 false 0) (mkPM 0 0 1 0 0 0 0 0 0) in
  cc_lps (import_clp 7 (export_clp c)) = [(1, [(10, mkLp 5 [] 7)])].
Proof. reflexivity. Qed.
Example C14_nonvacuous :
  let c := mkCC [(1, mkPool 10 20 30 0 0 0 0 0 0); (2, mkPool 1 2 3 0 0 0 0 0 0)]
                [(1, [(10, mkLp 5 [(3, 2)] 4); (11, mkLp 6 [] 2)]); (2, [(10, mkLp 1 [] 9)])]
                [(0, 7); (2, 9)] [] [] (mkLPS 100 10 true 50) (mkPM 0 0 1 0 0 0 0 0 0) in
  CarriedWF c /\ import_clp 12 (export_clp c) = c.
Proof.
  cbv zeta. split; [|reflexivity]. constructor; cbn.
  - exists 0. cbn. repeat split; reflexivity.
  - exists (-1). cbn. repeat split; reflexivity.
  - exists 0. cbn. repeat split; reflexivity.
  - constructor; [|constructor; [|constructor]]; cbn [snd]; (split; [discriminate|]); (split; [exists 0; cbn; repeat split; reflexivity|]).
    + intros e [<-|[<-|[]]]; discriminate.
    + intros e [<-|[]]; discriminate.
Qed.
