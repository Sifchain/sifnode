(* C03 — swaps settle exactly, within constant-product bounds, honouring the minimum. *)
From Coq Require Import ZArith List Bool QArith.
From Sif Require Import Base.Outcome Base.SdkMath Base.Store Base.Bank Model.ClpCalc Model.ClpTypes Model.ClpState Model.ClpMsgs
  Proofs.ClpInv Proofs.SwapProofs.
Import ListNotations.
Local Open Scope Z_scope.

(* a successful swap: trader -amt sent, +emit received; module account the opposite; every other
   (account, denom), the supply, providers, buckets and parameters unchanged; emit >= the stated minimum *)
Theorem C03_settle : forall s sg sent recv amt mn s' emit,
  swap s sg sent recv amt mn = Ok (s', emit) ->
  mn <= emit /\ 0 <= amt /\ 0 <= emit /\
  (forall a' d', bal (cs_bank s') a' d' = bal (cs_bank s) a' d'
      - ind ((a' =? sg) && (d' =? sent)) amt + ind ((a' =? CLP_MODULE) && (d' =? sent)) amt
      - ind ((a' =? CLP_MODULE) && (d' =? recv)) emit + ind ((a' =? sg) && (d' =? recv)) emit) /\
  (forall d', sup (cs_bank s') d' = sup (cs_bank s) d') /\
  cs_lps s' = cs_lps s /\ cs_buckets s' = cs_buckets s /\ cs_params s' = cs_params s.
Proof. exact swap_settles. Qed.
Print Assumptions C03_settle.

(* the pool moves by exactly (+amt, -emit) and the output is strictly below the pool's balance *)
Theorem C03_pools_single : forall s sg sent recv amt mn s' emit,
  swap s sg sent recv amt mn = Ok (s', emit) -> (sent = ROWAN \/ recv = ROWAN) ->
  let a := if recv =? ROWAN then sent else recv in
  exists p, get a (cs_pools s) = Some p /\
    cs_pools s' = set a (if recv =? ROWAN then moved p (- emit) amt else moved p amt (- emit)) (cs_pools s) /\
    emit < (if recv =? ROWAN then p_nb p else p_eb p).
Proof. exact swap_pools_single. Qed.
Print Assumptions C03_pools_single.

Theorem C03_pools_double : forall s sg sent recv amt mn s' emit,
  swap s sg sent recv amt mn = Ok (s', emit) -> sent <> ROWAN -> recv <> ROWAN -> sent <> recv ->
  exists mid p1 p2, get sent (cs_pools s) = Some p1 /\ get recv (cs_pools s) = Some p2 /\
    cs_pools s' = set recv (moved p2 mid (- emit)) (set sent (moved p1 (- mid) amt) (cs_pools s)) /\
    mid < p_nb p1 /\ emit < p_eb p2.
Proof. exact swap_pools_double. Qed.
Print Assumptions C03_pools_double.

(* each leg is computed from the depths including margin liabilities ... *)
Theorem C03_leg_depths : forall tr z sp r f res fee sp',
  swap_one tr z sp r f = Ok (res, fee, sp') ->
  calc_swap_result tr ((if tr then sp_eb sp + sp_el sp else sp_nb sp + sp_nl sp)) z
                      ((if tr then sp_nb sp + sp_nl sp else sp_eb sp + sp_el sp)) r f = Ok (res, fee).
Proof. exact swap_one_calc. Qed.
Print Assumptions C03_leg_depths.

(* ... and never exceeds x*Y/(X+x), shifted by (1+r) (bought token external) or 1/(1+r) (bought token
   native), reduced by the fee rate, plus one base unit — for all depths, amounts, r >= 0, f in [0,1] *)
Theorem C03_leg_upper : forall tr X x Y r f y fee,
  0 < X -> 0 < x -> 0 < Y -> 0 <= r -> 0 <= f <= PREC ->
  calc_swap_result tr X x Y r f = Ok (y, fee) ->
  0 <= y /\ 0 <= fee /\
  (inject_Z y <= adjusted_q tr X x Y r * (1 - dec_to_q f) + 1)%Q /\
  (inject_Z y <= adjusted_q tr X x Y r)%Q.
Proof. exact calc_swap_result_upper. Qed.
Print Assumptions C03_leg_upper.

(* a transaction that fails (a swap that cannot meet its conditions is one) changes nothing but the fee *)
Theorem C03_fail_unchanged : forall s fee m,
  snd (deliver s fee m) = false ->
  fst (deliver s fee m) = with_bank s (credit (cs_bank s) (signer_of m) ROWAN (- fee)).
Proof. exact deliver_fail_unchanged. Qed.
Print Assumptions C03_fail_unchanged.

Example C03_example :
  calc_swap_result false 1000000 1000 2000000 0 3000000000000000 = Ok (1993, 5) /\
  calc_swap_result true 1000000 1000 2000000 PREC PREC = Ok (0, 999).
Proof. split; vm_compute; reflexivity. Qed.
