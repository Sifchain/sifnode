(* C10 — block processing never panics for user histories or accepted policy settings.
   Partial: the theorems cover the policy-dependent panic sites of the clp BeginBlocker and EndBlocker (the
   sites the administrator messages can reach) and the confinement of message panics; freedom from 256/315-bit
   overflow of the remaining hook arithmetic is a hypothesis (operating envelope), not a theorem, and that the
   margin and epoch hooks return normally is watched by the harness monitors only (C01_margin_begin_block and
   C13_begin_block say what the margin hook does when it returns). *)
From Coq Require Import ZArith List Bool Lia.
From RecordUpdate Require Import RecordUpdate.
From Sif Require Import Base.Outcome Base.SdkMath Base.Store Base.Bank Model.ClpTypes Model.ClpRewards Model.ClpPolicy
  Model.ClpState Model.ClpMsgs Model.Dispensation Proofs.PolicyProofs.
Import ListNotations.
Local Open Scope Z_scope.

(* Every administrator policy message that is accepted leaves the policy state "digestible" (PolSafe:
   current threshold <= max and epoch length >= 1 when protection is active; ratio-shifting epoch length >= 1
   and governance rate > -1; every reward period has a non-zero uint64 length; every provider-distribution
   period has mod <> 0 and rate in [0,1]); a rejected one leaves the state as it was (the last case of policy_deliver). *)
Theorem C10_accepted_policy_is_safe : forall s m,
  PolSafe s -> msg_typed m -> PolSafe (fst (policy_deliver s m)).
Proof. exact policy_deliver_safe. Qed.
Print Assumptions C10_accepted_policy_is_safe.

(* The liquidity-protection replenishment of BeginBlock cannot panic on a safe state (no division by a zero
   epoch length, no unsigned underflow of max - current) and keeps it safe. *)
Theorem C10_lp_begin_no_panic : forall l,
  LPSafe l -> exists l', lp_begin l = Ok l' /\ LPSafe l' /\ lps_max l' = lps_max l /\ lps_current l <= lps_current l'.
Proof. exact lp_begin_safe. Qed.
Print Assumptions C10_lp_begin_no_panic.

(* The policy-dependent panic sites of EndBlock: the per-block allocation of a safe reward period (division by
   the period length), the modulo of the reward path (0 is replaced by 1) and of a safe provider-distribution
   period. *)
Theorem C10_endblock_policy_sites : forall h,
  (forall p, rp_safe p -> exists x, calc_block_distribution p = Ok x) /\
  (forall p, let p' := if rp_mod p =? 0 then mkRP (rp_start p) (rp_end p) (rp_alloc p) (rp_mults p) (rp_default p) (rp_distribute p) 1 else p in
             exists b, is_distribution_block h (rp_start p') (rp_mod p') = Ok b) /\
  (forall p, lppd_safe p -> exists b, is_distribution_block h (pd_start p) (pd_mod p) = Ok b).
Proof.
  intros h. split; [exact rp_safe_block_distribution | split; [exact (rewards_mod_site h) | exact (lppd_safe_site h)]].
Qed.
Print Assumptions C10_endblock_policy_sites.

(* The ratio-shifting part of BeginBlock on a safe state returns normally unless (i) the policy starts in this
   block and the block rate computed by math.Pow does not parse ([br = None]; excluded for governance rates
   > -1 by the float assumption recorded in the trusted base) or (ii) Dec.Power / the additions of
   PolicyCalculations overflow 315 bits. *)
Theorem C10_pmtp_begin : forall pm h br,
  PMSafe pm ->
  (starts pm h = true -> br <> None) ->
  (forall pm1, (if starts pm h then policy_start pm br else Ok pm) = Ok pm1 -> runs pm1 h = true -> exists pm', policy_calc pm1 h = Ok pm') ->
  exists pm', pmtp_begin pm h br = Ok pm' /\ PMSafe pm'.
Proof. intros pm h br Hs H1 H2. exact (pmtp_begin_safe pm h br Hs (conj H1 H2)). Qed.
Print Assumptions C10_pmtp_begin.

(* (ii) never happens for a block rate in [-2, 0], whatever the length of the policy *)
Theorem C10_policy_calc_down_shift : forall pm h,
  Z.abs (PREC + pm_block_rate pm) <= PREC -> Z.abs (pm_inter pm) < DEC_LIM - 2 * PREC ->
  exists pm', policy_calc pm h = Ok pm'.
Proof. exact policy_calc_le_one. Qed.
Print Assumptions C10_policy_calc_down_shift.

(* ... and it does happen for a large accepted governance rate: known finding F-16, stated on the model *)
Theorem C10_policy_calc_overflow_refuted : exists pm h,
  PMSafe pm /\ runs pm h = true /\ policy_calc pm h = Panic.
Proof.
  exists (mkPM 3 8 2 (10 ^ 38 * PREC) (10 ^ 38 * PREC) 0 0 3 2), 5.
  split; [split; vm_compute; congruence|]. split; vm_compute; reflexivity.
Qed.
Print Assumptions C10_policy_calc_overflow_refuted.

(* PolicyRun's price computation returns an error instead of dividing by zero *)
Theorem C10_policy_run_no_division_by_zero : forall X Y r n, exists o, spot_price_x X Y r n = Ok o /\
  forall num den, o = Some (num, den) -> den <> 0.
Proof. exact spot_price_x_total. Qed.
Print Assumptions C10_policy_run_no_division_by_zero.

(* Over every history of administrator messages (accepted or not) and blocks, from a safe policy state: the
   policy part of every BeginBlock returns normally and the state stays safe, provided each block's float
   result parses and its Dec.Power does not overflow (hist_env_ok). *)
Theorem C10_policy_history : forall h s,
  PolSafe s -> hist_env_ok s h -> exists s', prun s h = Ok s' /\ PolSafe s'.
Proof. exact policy_history_no_panic. Qed.
Print Assumptions C10_policy_history.

(* A panic while executing a message is confined to the transaction: the delivered transaction fails and the
   state is the one after the ante handler (fee taken), in every modelled module. *)
Theorem C10_tx_panic_confined :
  (forall s fee m, ClpMsgs.handle (with_bank s (credit (cs_bank s) (ClpMsgs.signer_of m) ROWAN (- fee))) m = Panic ->
     ClpMsgs.deliver s fee m = (with_bank s (credit (cs_bank s) (ClpMsgs.signer_of m) ROWAN (- fee)), false)) /\
  (forall s fee m, Dispensation.validate_basic m = true ->
     Dispensation.handle (s <| ds_bank := credit (ds_bank s) (Dispensation.signer_of m) 0 (- fee) |>) m = Panic ->
     Dispensation.deliver s fee m = (s <| ds_bank := credit (ds_bank s) (Dispensation.signer_of m) 0 (- fee) |>, false)) /\
  (forall s m, policy_handle s m = Panic -> policy_deliver s m = (s, false)).
Proof.
  split; [|split].
  - intros s fee m H. unfold ClpMsgs.deliver. rewrite H. reflexivity.
  - intros s fee m Hv H. unfold Dispensation.deliver. rewrite Hv. cbn [negb]. rewrite H. reflexivity.
  - intros s m H. unfold policy_deliver. rewrite H. reflexivity.
Qed.
Print Assumptions C10_tx_panic_confined.

(* ---- what the fixed validations exclude (findings F-4, F-5, F-6 on the model) ---- *)
Example C10_f4_current_above_max : lp_begin (mkLPS 100 10 true 200) = Panic.
Proof. vm_compute. reflexivity. Qed.
Example C10_f4_rejected : forall s, lps_max (pol_lp s) = 100 -> fst (policy_deliver s (PModifyLPRates 200)) = s.
Proof. intros s H. unfold policy_deliver, policy_handle, modify_lp_rates. rewrite H. reflexivity. Qed.
Example C10_f5_wrapped_length : calc_block_distribution (mkRP 0 (2 ^ 64 - 1) 1000 [] PREC false 1) = Panic.
Proof. vm_compute. reflexivity. Qed.
Example C10_f5_rejected : rp_valid (mkRM false 0 (2 ^ 64 - 1) (Some 1000) [] (Some PREC) false 1) = false
  /\ rp_valid (mkRM false 5 9 None [] (Some PREC) false 1) = false.
Proof. split; vm_compute; reflexivity. Qed.
Example C10_f6_nan_at_start : policy_start (mkPM 5 8 2 (- 2 * PREC) 0 0 0 0 0) None = Panic.
Proof. reflexivity. Qed.
(* a safe state satisfying all hypotheses, and a history on it *)
Example C10_nonvacuous :
  let s := mkPol 2 (mkLPS 1000 10 true 400) (mkPM 0 0 1 0 0 0 0 0 0) [] [] in
  PolSafe s /\
  exists s', prun s [PMsg (PUpdatePmtpParams (DVal (- PREC / 2)) 2 4 7 (Some (- PREC / 4))); PMsg (PModifyLPRates 2000); PBlock None; PBlock (Some (- PREC / 4)); PBlock None] = Ok s'
    /\ lps_current (pol_lp s') = 700 /\ pm_epochs (pol_pmtp s') = 1 /\ pm_running (pol_pmtp s') = -437500000000000000.
Proof.
  cbv zeta. split.
  - split; [|split; [|split; constructor]].
    + unfold LPSafe; cbn [pol_lp lps_current lps_max lps_active lps_epoch].
      assert (1000 < UINT_LIM) by (vm_compute; reflexivity). repeat split; try lia.
    + unfold PMSafe; cbn [pol_pmtp pm_epoch_len pm_gov]. split; [lia | vm_compute; reflexivity].
  - eexists. split; [vm_compute; reflexivity|]. repeat split.
Qed.

(* ratio-shifting policies add up: each leaves its final running rate behind for the next one to start from. An accepted
   policy of negative rate reaches, on its last block, a running rate above -1 as PolicyCalculations computes it there with
   the block rate PolicyStart stores ([br]: PmtpPeriodBlockRate) - so 1 + rate is positive wherever block processing
   divides by it (finding F-29: two accepted policies of rate -0.5 gave exactly -1) *)
Theorem C10_accepted_policy_end_rate : forall s g el st en br s',
  update_pmtp_params s g el st en br = Ok s' -> pm_gov (pol_pmtp s') < 0 ->
  pm_inter (pol_pmtp s') = pm_inter (pol_pmtp s) /\
  exists b, br = Some b /\
    (0 <= b \/ exists r pm', policy_calc (pol_pmtp s' <| pm_block_rate := b |>) (pm_end (pol_pmtp s')) = Ok pm' /\
                             pm_running pm' = r /\ - PREC < r).
Proof.
  intros s g el st en br s' H Hg. apply update_pmtp_params_inv in H as (pm & -> & Hu & Hl & Hi & _).
  split; [exact Hi|]. destruct (end_rate_ok_inv _ _ Hu Hg Hl) as (b & Hb & Hr). exists b. split; [exact Hb|].
  destruct Hr as [Hr|(r & Hr & Hlt)]; [left; exact Hr|right]. unfold policy_end_rate in Hr.
  apply bind_ok_inv in Hr as (pm' & Hc & [= <-]). exists (pm_running pm'), pm'. auto.
Qed.
Print Assumptions C10_accepted_policy_end_rate.
(* ... and a running rate set by ModifyPmtpRates while such a policy is scheduled (not started yet) is the rate the policy will
   start from: it is accepted only if the policy still ends above -1 (finding F-30: policy -0.5 scheduled, then running rate
   -0.5 set, gave exactly -1) *)
Theorem C10_rates_under_scheduled_policy : forall s b rv e br s',
  modify_pmtp_rates s b (DVal rv) e br = Ok s' -> in_window s = false -> pol_height s < pm_start (pol_pmtp s) ->
  pm_gov (pol_pmtp s) < 0 -> 0 < pm_epoch_len (pol_pmtp s) ->
  pm_inter (pol_pmtp s') = rv /\ pm_gov (pol_pmtp s') = pm_gov (pol_pmtp s) /\
  pm_start (pol_pmtp s') = pm_start (pol_pmtp s) /\ pm_end (pol_pmtp s') = pm_end (pol_pmtp s) /\
  exists bb, br = Some bb /\ (0 <= bb \/ exists r, policy_end_rate (pol_pmtp s') bb = Ok r /\ - PREC < r).
Proof.
  intros s b rv e br s' H Hw Hh Hg Hl. apply modify_pmtp_rates_inv in H as (pm & -> & [= El Eg] & Hr).
  destruct (Hr rv eq_refl Hw Hh) as (Hu & Hi & Hs & He). cbn [pol_pmtp RecordSet.set].
  rewrite <- Eg in Hg. rewrite <- El in Hl. auto 6 using end_rate_ok_inv.
Qed.
Print Assumptions C10_rates_under_scheduled_policy.
Example C10_f30_rate_under_scheduled_policy_refused :
  let s := mkPol 3 (mkLPS 1000 10 true 400) (mkPM 5 5 1 (- PREC / 2) 0 0 0 0 0) [] [] in
  modify_pmtp_rates s DEmpty (DVal (- PREC / 2)) false (Some (- PREC / 2)) = Err 5 /\
  exists s', modify_pmtp_rates s DEmpty (DVal (- PREC / 4)) false (Some (- PREC / 2)) = Ok s'.
Proof. vm_compute. split; [reflexivity|eexists; reflexivity]. Qed.
Example C10_f29_second_policy_refused :
  let s := mkPol 6 (mkLPS 1000 10 true 400) (mkPM 3 3 1 (- PREC / 2) (- PREC / 2) (- PREC / 2) (- PREC / 2) 0 0) [] [] in
  update_pmtp_params s (DVal (- PREC / 2)) 1 7 7 (Some (- PREC / 2)) = Err 5 /\
  policy_end_rate (pol_pmtp s <| pm_start := 7 |> <| pm_end := 7 |>) (- PREC / 2) = Ok (- PREC) /\
  exists s', update_pmtp_params s (DVal (- PREC / 4)) 1 7 7 (Some (- PREC / 4)) = Ok s'.
Proof. vm_compute. split; [reflexivity|split; [reflexivity|eexists; reflexivity]]. Qed.

(* swap-fee parameters: a message that is accepted carries a default rate and per-token rates in [0,1] only (a rate above 1
   makes the fee exceed the swapped amount: sdk.Uint underflow in the epoch hook's re-investment) *)
Theorem C10_swap_fee_rates_in_range : forall s d rs s',
  policy_handle s (PUpdateSwapFee d rs) = Ok s' -> s' = s /\ 0 <= d <= PREC /\ Forall (fun r => 0 <= r <= PREC) rs.
Proof. exact swap_fee_accepted. Qed.
Print Assumptions C10_swap_fee_rates_in_range.
