(* C15 — liquidity removal requires a matured, unexpired, unconsumed unlock request. *)
From Coq Require Import ZArith List Bool Lia.
From Sif Require Import Base.Outcome Base.Store Base.Bank Model.ClpCalc Model.ClpTypes Model.ClpState Model.ClpMsgs
  Proofs.ClpInv Proofs.ClpUnits Proofs.UnlockProofs Proofs.UnlockHist.
Import ListNotations.
Local Open Scope Z_scope.

(* The open requests of a provider at a given moment are its stored records minus the expired ones
   (height >= request + L + cancel) and the empty ones: *)
Theorem C15_open_requests : forall h lock cancel us r,
  In r (prune_unlocks h lock cancel us) <-> In r us /\ h < fst r + lock + cancel /\ snd r <> 0.
Proof. exact prune_unlocks_spec. Qed.
Print Assumptions C15_open_requests.

(* both removal messages succeed only if the consumption of the burned units from those open requests succeeds *)
Theorem C15_removal_consumes_requests : forall s sg a u s',
  remove_liquidity_units s sg a u = Ok s' ->
  exists l0 lft caller stored,
    find_lp s a sg = Some l0 /\ 0 <= lp_units l0 - lft /\
    use_unlocked false (cs_height s) (cp_lock (cs_params s))
      (prune_unlocks (cs_height s) (cp_lock (cs_params s)) (cp_cancel (cs_params s)) (lp_unlocks l0))
      (lp_units l0 - lft) = Ok (caller, stored) /\
    (lft <> 0 -> exists l', find_lp s' a sg = Some l' /\ lp_units l' = lft /\ lp_unlocks l' = caller).
Proof. exact remove_units_requires. Qed.
Print Assumptions C15_removal_consumes_requests.

Theorem C15_removal_bp_consumes_requests : forall s sg a w asym s',
  remove_liquidity s sg a w asym = Ok s' ->
  exists l0 lft caller stored,
    find_lp s a sg = Some l0 /\ 0 <= lp_units l0 - lft /\
    use_unlocked false (cs_height s) (cp_lock (cs_params s))
      (prune_unlocks (cs_height s) (cp_lock (cs_params s)) (cp_cancel (cs_params s)) (lp_unlocks l0))
      (lp_units l0 - lft) = Ok (caller, stored) /\
    (lft <> 0 -> exists l', find_lp s' a sg = Some l' /\ lp_units l' = lft /\ lp_unlocks l' = caller).
Proof. exact remove_requires. Qed.
Print Assumptions C15_removal_bp_consumes_requests.

(* ... and that consumption, for any list of requests and any amount: takes units only from requests with
   request height + L <= current height (any request for a cancel), never more than a request holds
   (so no unit is consumed twice: what is taken is gone from the record), in total exactly the burned
   amount when L <> 0, and leaves exactly the remainder stored *)
Theorem C15_matured_once : forall any h lock us units caller stored,
  nonneg_units us -> 0 <= units ->
  use_unlocked any h lock us units = Ok (caller, stored) ->
  usum stored = usum caller /\ nonneg_units caller /\
  usum us - usum caller <= units /\
  (lock <> 0 -> usum us - usum caller = units) /\
  Forall2 (fun r r' => snd r' <= snd r /\ (snd r' < snd r -> any || matured h lock r = true)) us caller.
Proof. exact use_unlocked_spec. Qed.
Print Assumptions C15_matured_once.

(* with L = 0 no request is needed *)
Theorem C15_L0 : forall any h us units, exists c st, use_unlocked any h 0 us units = Ok (c, st).
Proof. exact use_unlocked_L0. Qed.
Print Assumptions C15_L0.

(* outstanding requests never exceed the provider's units when a request is made *)
Theorem C15_request_bound : forall s sg a u s',
  unlock s sg a u = Ok s' ->
  exists l0 l', find_lp s a sg = Some l0 /\ find_lp s' a sg = Some l' /\
    let us0 := prune_unlocks (cs_height s) (cp_lock (cs_params s)) (cp_cancel (cs_params s)) (lp_unlocks l0) in
    fold_left (fun acc r => acc + snd r) us0 0 + u <= lp_units l0 /\
    lp_unlocks l' = us0 ++ [(cs_height s, u)] /\ lp_units l' = lp_units l0.
Proof.
  intros s sg a u s' H. destruct (unlock_spec _ _ _ _ _ H) as (l0 & l' & -> & Hf & Hu & Hle & Hul).
  exists l0, l'. rewrite find_put_same. auto.
Qed.
Print Assumptions C15_request_bound.

(* ---- over histories: whatever transactions (accepted or rejected), blocks, administrator changes of the lock / cancel
   periods (through 0 and back) and growth of a provider's units (the step HGrow: what a re-investment of rewards does to
   one record; the epoch hook itself is not a step of these histories) happen, in every state reached every
   provider's outstanding requests are non-negative, were made at heights up to the current one, and add up to at most the
   provider's units. Premises: the amounts of the messages are unsigned (they are sdk.Uint in the code); the start state
   satisfies the invariant (the empty chain does: C15_initial). ---- *)
Theorem C15_history : forall steps s, CInv s -> Forall step_ok steps -> CInv (fold_left hstep steps s).
Proof. exact history_CInv. Qed.
Print Assumptions C15_history.
Theorem C15_outstanding_le_units : forall steps s a addr l,
  CInv s -> Forall step_ok steps -> find_lp (fold_left hstep steps s) a addr = Some l ->
  0 <= usum (lp_unlocks l) <= lp_units l /\ nonneg_units (lp_unlocks l).
Proof. exact history_outstanding_le_units. Qed.
Print Assumptions C15_outstanding_le_units.
Theorem C15_initial : forall s, cs_lps s = [] -> cs_pools s = [] -> CInv s.
Proof. exact CInv_initial. Qed.
Print Assumptions C15_initial.

(* a history that requests, waits, lets the administrator set the lock period to 0 and back, and removes *)
Example C15_history_example :
  let s := mkClp (mkBank [(10, [(0, 9000000000000000000000); (1, 9000000000000000000000)]);
                          (11, [(0, 9000000000000000000000); (1, 9000000000000000000000)])] [])
        [] [] [] 0 [] [] 5 (mkCP 0 3000000000000000 [] 2 10 [(0, 7); (1, 7)] [10] 0 false [] 0) in
  let steps := [HTx 1000 (MCreatePool 10 1 5000000000000000000000 7000000000000000000000);
                HTx 1000 (MAddLiquidity 11 1 3000000000000000000 4200000000000000000);
                HTx 1000 (MUnlock 11 1 2000000000000000000); HNextBlock; HNextBlock;
                HSetParams (mkCP 0 3000000000000000 [] 0 10 [(0, 7); (1, 7)] [10] 0 false [] 0);
                HTx 1000 (MRemoveLiquidityUnits 11 1 1000000000000000000);
                HSetParams (mkCP 0 3000000000000000 [] 2 10 [(0, 7); (1, 7)] [10] 0 false [] 0);
                HTx 1000 (MRemoveLiquidityUnits 11 1 500000000000000000)] in
  CInv s /\ Forall step_ok steps /\
  option_map (fun l => (lp_units l, usum (lp_unlocks l))) (find_lp (fold_left hstep steps s) 1 11) = Some (1500000000000000000, 500000000000000000).
Proof.
  cbv zeta. split; [apply CInv_initial; reflexivity|]. split; [repeat constructor; cbn; lia|]. vm_compute. reflexivity.
Qed.

Example C15_example :
  use_unlocked false 10 5 [(2, 30); (5, 40); (7, 50)] 60 = Ok ([(2, 0); (5, 10); (7, 50)], [(5, 10); (7, 50)]) /\
  use_unlocked false 10 5 [(2, 30); (7, 50)] 60 = Err 1 /\
  nonneg_units [(2, 30); (5, 40); (7, 50)].
Proof. repeat split; try (vm_compute; reflexivity). repeat constructor; cbn; discriminate. Qed.
