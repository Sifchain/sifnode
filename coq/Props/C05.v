(* C05 — bridge prophecies need the whitelisted-power threshold and are final. *)
From Coq Require Import ZArith List Bool Permutation Lia.
From Sif Require Import Base.Outcome Base.Store Base.Bank Model.Bridge Proofs.BridgeProofs Proofs.BridgeOrder Gen.Consts.
Import ListNotations.
Local Open Scope Z_scope.

(* a claim is accepted only from a currently whitelisted, bonded validator that has not claimed on this
   prophecy yet, and only while the prophecy is pending *)
Theorem C05_gate : forall s perm pid val cid s' pr,
  process_claim s perm pid val cid = Ok (s', pr) ->
  mem val (br_whitelist s) = true /\ is_active s val = true /\
  pr_status (old_prophecy s pid) = 0 /\ lookup val (pr_vclaims (old_prophecy s pid)) = None /\
  s' = RecordSet.set br_prophecies (fun _ => set pid pr (br_prophecies s)) s /\
  let pr1 := RecordSet.set pr_vclaims (fun _ => pr_vclaims (old_prophecy s pid) ++ [(val, cid)])
               (RecordSet.set pr_claims (fun _ => add_claim cid val (pr_claims (old_prophecy s pid))) (old_prophecy s pid)) in
  pr = process_completion s (perm (pr_claims pr1)) pr1.
Proof. exact process_claim_inv. Qed.
Print Assumptions C05_gate.

(* success needs the threshold: the power counted for the final claim is the power of its supporters that are
   bonded and whitelisted when the claim is processed (claim_power filters both), out of all bonded whitelisted power *)
Theorem C05_threshold : forall s perm pid val cid s' pr,
  0 <= total_power s ->
  process_claim s perm pid val cid = Ok (s', pr) -> pr_status pr = 1 ->
  exists vals, In (pr_final pr, vals) (perm (add_claim cid val (pr_claims (old_prophecy s pid)))) /\
               ratio_ge (claim_power s vals) (total_power s) = true.
Proof. exact success_needs_threshold. Qed.
Print Assumptions C05_threshold.

(* the threshold test is 70 % *)
Theorem C05_threshold_is_70_percent : forall p q, 0 < q -> (ratio_ge p q = true <-> 7 * q <= 10 * p).
Proof. intros p q Hq. unfold ratio_ge. destruct (Z.eqb_spec q 0); [lia|]. apply Z.leb_le. Qed.
Print Assumptions C05_threshold_is_70_percent.

Theorem C05_threshold_constant : gen_consensus_needed_times_1000 = 700 /\ gen_oracle_keeper_uses_default_threshold = 1.
Proof. split; reflexivity. Qed.
Print Assumptions C05_threshold_constant.

(* finality: once successful or failed, every later claim fails (and a failed transaction changes nothing);
   claims about other events never touch it *)
Theorem C05_final : forall s perm pid val cid ct,
  pr_status (old_prophecy s pid) <> 0 -> exists e, create_claim s perm pid val cid ct = e /\ is_ok e = false.
Proof. exact finalised_rejects. Qed.
Print Assumptions C05_final.

Theorem C05_final_stable : forall perm s m pid,
  status_of s pid <> 0 -> status_of (fst (deliver_claim perm s m)) pid = status_of s pid.
Proof. exact status_stable. Qed.
Print Assumptions C05_final_stable.

(* the outcome does not depend on the order in which Go ranges over the claim map.
   PARTIAL: the hypothesis that the claims' powers add up to at most the total (each validator claims at
   most once per prophecy) is assumed here, not derived from the prophecy invariant. *)
Theorem C05_order_independent_partial : forall s l1 l2 pr,
  Permutation l1 l2 -> powers_nonneg s -> claims_total s l1 <= total_power s ->
  pr_status (process_completion s l1 pr) = pr_status (process_completion s l2 pr) /\
  (pr_status (process_completion s l1 pr) = 1 -> pr_status pr <> 1 ->
   pr_final (process_completion s l1 pr) = pr_final (process_completion s l2 pr)).
Proof. exact completion_order_independent. Qed.
Print Assumptions C05_order_independent_partial.

(* ... and that hypothesis is an invariant: every stored prophecy lists a validator under at most one claim content
   (kept by every claim transaction), so with a staking set that is a map with non-negative powers the whole result
   of a claim transaction — new state, prophecy, status, final claim, balances — is the same for any two orders *)
Theorem C05_order_independent : forall s perm1 perm2 pid val cid ct,
  is_order perm1 -> is_order perm2 -> staking_wf s -> prophecies_inv s ->
  create_claim s perm1 pid val cid ct = create_claim s perm2 pid val cid ct.
Proof. exact create_claim_order_free. Qed.
Print Assumptions C05_order_independent.

Theorem C05_claims_bounded_by_total : forall s pr, staking_wf s -> claims_inv pr -> claims_total s (pr_claims pr) <= total_power s.
Proof. intros s pr Hw Hc. exact (claims_inv_bound s pr Hw (proj1 Hc)). Qed.
Print Assumptions C05_claims_bounded_by_total.

(* over histories: claims (several prophecies in flight, any contents), whitelist additions and removals, and
   arbitrary changes of the staking set in between; premise on the first state only *)
Theorem C05_history_order_independent : forall perm1 perm2 es s,
  is_order perm1 -> is_order perm2 -> bridge_inv s -> evs_wf es ->
  bridge_run perm1 s es = bridge_run perm2 s es /\ bridge_inv (fst (bridge_run perm1 s es)).
Proof. intros perm1 perm2 es s H1 H2 Hi He. exact (bridge_run_order_free perm1 perm2 es H1 H2 s Hi He). Qed.
Print Assumptions C05_history_order_independent.

Theorem C05_initial : forall s, staking_wf s -> br_prophecies s = [] -> bridge_inv s.
Proof. exact bridge_inv_initial. Qed.
Print Assumptions C05_initial.

(* non-vacuity: three validators 30/45/25, two contents, a removal from the whitelist in between; the second content
   reaches 70 of the remaining 70 and the event is credited at the last step, under both orders *)
Definition ex_bridge : bridge_state :=
  mkBridge (mkBank [] []) [] [1; 2; 3] [(1, (30, true)); (2, (45, true)); (3, (25, true))] [] [] [] false [] None 9 [9].
Definition ex_events : list bridge_ev :=
  [EvClaim (mkClaimMsg 7 1 100 (mkContent 50 10 1 1)); EvClaim (mkClaimMsg 7 2 101 (mkContent 51 10 1 1));
   EvWhitelist 9 1 false; EvClaim (mkClaimMsg 7 3 101 (mkContent 51 10 1 1))].
Example C05_history_example :
  bridge_inv ex_bridge /\ evs_wf ex_events /\ is_order (fun l => l) /\ is_order (@rev _) /\
  snd (bridge_run (fun l => l) ex_bridge ex_events) = [None; None; None; Some 7] /\
  snd (bridge_run (@rev _) ex_bridge ex_events) = [None; None; None; Some 7].
Proof.
  split; [apply bridge_inv_initial; [split; [repeat constructor; cbn; intuition lia|repeat constructor; cbn; lia]|reflexivity]|].
  split; [repeat constructor|]. split; [intros l; reflexivity|]. split; [intros l; symmetry; apply Permutation_rev|].
  split; vm_compute; reflexivity.
Qed.

(* the premise is decidable, and Check/Bridge.v evaluates it on the pre- and post-state of every observed transaction *)
Theorem C05_premise_checked : forall s, bridge_inv_b s = true -> bridge_inv s.
Proof. exact bridge_inv_b_sound. Qed.
Print Assumptions C05_premise_checked.

(* the threshold tests are float64 comparisons in the code, float64(power) / float64(total) >= 0.7 (and < 0.7 for the
   "can no longer succeed" branch). In IEEE-754 binary64 as formalised by Flocq — the two integers exactly representable,
   the division correctly rounded, the constant 0.7 rounded to nearest-even — they are exactly the rational tests of the
   model, for totals up to 2^40 (voting power is counted in whole rowan, the supply is a few 10^9). These two theorems use the
   standard library's real numbers: their axioms are what Print Assumptions lists. *)
From Coq Require Import Reals.
From Sif Require Import Proofs.FloatThreshold.

Theorem C05_threshold_is_the_float_test : forall p q, 0 < q <= 2 ^ 40 ->
  (ratio_ge p q = true <-> (rnd64 (7 / 10) <= rnd64 (IZR p / IZR q))%R).
Proof. exact ratio_ge_is_float. Qed.
Print Assumptions C05_threshold_is_the_float_test.

Theorem C05_failure_test_is_the_float_test : forall p q, 0 < q <= 2 ^ 40 ->
  (ratio_lt p q = true <-> (rnd64 (IZR p / IZR q) < rnd64 (7 / 10))%R).
Proof. exact ratio_lt_is_float. Qed.
Print Assumptions C05_failure_test_is_the_float_test.
