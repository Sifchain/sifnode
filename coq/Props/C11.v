(* C11 — dispensation pays each record exactly once from escrowed funds. *)
From Coq Require Import ZArith List Bool.
From RecordUpdate Require Import RecordUpdate.
From Sif Require Import Base.Outcome Base.Store Base.Bank Model.Dispensation Proofs.DispProofs.
Import ListNotations.
Local Open Scope Z_scope.

(* Creating a distribution (a message that passed ValidateBasic, signed by an account other than the module
   account): exactly the sum of its outputs (otot, per denom) moves from the distributor to the dispensation
   account, nobody else's balance changes; under every key (name, type, recipient) the pending coins grow by
   exactly the outputs addressed to that key (outs_for) — nothing else is recorded; a record that is new or
   changed carries the message's runner, the current height as start and no completion height; completed and
   failed records, claims and the blocked list are untouched; the distribution (name, type, runner) did not
   exist before.  The well-formedness and escrow invariants are kept. *)
Theorem C11_create : forall s dist name typ runner outs s',
  WF s -> Escrow s -> dist <> DISP_MODULE ->
  validate_basic (MCreateDist dist name typ runner outs) = true ->
  create_distribution s dist name typ runner outs = Ok s' ->
  WF s' /\ Escrow s' /\
  (forall a d, bal (ds_bank s') a d = bal (ds_bank s) a d
     - (if a =? dist then otot d outs else 0) + (if a =? DISP_MODULE then otot d outs else 0)) /\
  (forall d k, pc d k (ds_pending s') = pc d k (ds_pending s) + outs_for d name typ k outs) /\
  (forall k r, rget k (ds_pending s') = Some r -> rget k (ds_pending s) = Some r \/
               (k_name k = name /\ k_type k = typ /\ r_runner r = runner /\ r_start r = ds_height s /\ r_done r = -1)) /\
  ds_completed s' = ds_completed s /\ ds_failed s' = ds_failed s /\ ds_claims s' = ds_claims s /\
  ds_blocked s' = ds_blocked s /\ ds_height s' = ds_height s /\
  ~ In (name, typ, runner) (ds_dists s) /\ ds_dists s' = (name, typ, runner) :: ds_dists s.
Proof. intros s dist name typ runner outs s' Hwf Hesc Hne Hvb H. exact (proj2 (create_distribution_spec _ _ _ _ _ _ _ Hwf Hesc Hne Hvb H)). Qed.
Print Assumptions C11_create.

(* A run by [runner] for (name, type, count): the processed records [sel] are at most [count], all were
   pending, all belong to this distribution name and type and carry this runner (the signer of the message);
   they and only they leave the pending table (run_post: rp_pending_sel / rp_pending_other); each becomes
   completed with its coins and the current height if its recipient can receive, otherwise failed without
   any payment (rp_outcome); every account's balance grows by exactly the coins of its own paid records and
   the module account's drops by exactly their sum (rp_bal); claims only shrink, the claim of every paid
   claim-type record is deleted and no other claim is (rp_claims_sub, rp_claims_del, rp_claims_keep); invariants kept (rp_wf, rp_escrow). *)
Theorem C11_run : forall s runner name typ count s',
  WF s -> Escrow s ->
  run_distribution s runner name typ count = Ok s' ->
  let sel := select_records (ds_pending s) name runner typ (Z.to_nat count) in
  run_post s s' sel /\
  (length sel <= Z.to_nat count)%nat /\ NoDup (tkeys sel) /\
  (forall k r, In (k, r) sel -> rget k (ds_pending s) = Some r /\ k_name k = name /\ r_runner r = runner /\ k_type k = typ).
Proof.
  intros s runner name typ count s' Hwf Hesc [= <-].
  destruct (select_pending s name runner typ (Z.to_nat count) Hwf) as (Hlen & Hnd & Hsel).
  split; [apply run_fold; auto; intros k r Hin; apply Hsel; exact Hin | auto].
Qed.
Print Assumptions C11_run.

(* At all times: over every history of transactions (any of the three messages, accepted or rejected, with
   any fee), new blocks and bank activity of the rest of the chain that does not debit the dispensation
   account, from any state satisfying the invariant (e.g. genesis): the dispensation account holds at least
   the sum of all pending and failed records in every denom, pending keys are unique, and no user holds two
   claims of one type. *)
Theorem C11_escrow_always : forall h s,
  Inv s -> hist_ok s h ->
  let s' := hrun s h in
  (forall d, rsum d (ds_pending s') + rsum d (ds_failed s') <= bal (ds_bank s') DISP_MODULE d) /\
  NoDup (tkeys (ds_pending s')) /\ NoDup (ds_claims s').
Proof.
  intros h s Hi Hok. destruct (inv_history h s Hi Hok) as (Hwf & Hesc & Hcl).
  split; [exact Hesc | split; [apply Hwf | exact Hcl]].
Qed.
Print Assumptions C11_escrow_always.

Theorem C11_genesis_inv : forall b blocked h,
  In DISP_MODULE blocked -> (forall d, 0 <= bal b DISP_MODULE d) -> LInv (genesis b blocked h).
Proof. exact genesis_linv. Qed.
Print Assumptions C11_genesis_inv.

(* At most once, in full: over every such history the per-key ledger balances — what was ever recorded under
   a key = what is still pending under it + what was paid + what was marked failed — so the payments under
   a key never exceed what was recorded for it, and (C11_run) each payment is the full coins of one record
   that leaves the pending table in the same step. *)
Theorem C11_ledger_always : forall h s k d,
  LInv s -> hist_ok s h ->
  let s' := hrun s h in
  amt d (l_owed (lg s' k)) = pc d k (ds_pending s') + amt d (l_paid (lg s' k)) + amt d (l_failed (lg s' k)) /\
  0 <= amt d (l_failed (lg s' k)) /\
  0 <= amt d (l_paid (lg s' k)) <= amt d (l_owed (lg s' k)).
Proof.
  intros h s k d Hi Hok. pose proof (linv_history h s Hi Hok) as Hl. cbv zeta.
  pose proof (paid_le_owed _ k d Hl). destruct Hl as [_ Hl]. destruct (Hl k d) as (H1 & H2 & H3). repeat split; auto.
Qed.
Print Assumptions C11_ledger_always.

(* the ledger's paid column is exactly the payments made: in a run it grows, per key, by the coins of the
   records of that key that were paid (the same quantity rp_bal credits to the recipients) *)
Theorem C11_ledger_is_payments : forall s runner name typ count s',
  LInv s -> run_distribution s runner name typ count = Ok s' ->
  let sel := select_records (ds_pending s) name runner typ (Z.to_nat count) in
  forall k d, amt d (l_paid (lg s' k)) = amt d (l_paid (lg s k)) + sel_sum (ds_blocked s) (key_eqb k) d sel.
Proof.
  intros s runner name typ count s' [(Hwf & Hesc & _) Hl] [= <-].
  destruct (select_pending s name runner typ (Z.to_nat count) Hwf) as (_ & Hnd & Hsel).
  apply (run_fold _ s Hwf Hesc Hnd (fun k r Hin => proj1 (Hsel k r Hin))), Hl.
Qed.
Print Assumptions C11_ledger_is_payments.

Theorem C11_claim : forall s user typ s',
  create_claim s user typ = Ok s' ->
  ~ In (user, typ) (ds_claims s) /\ s' = s <| ds_claims := (user, typ) :: ds_claims s |>.
Proof. exact create_claim_spec. Qed.
Print Assumptions C11_claim.

(* ---- the hypotheses are met by a concrete non-trivial history (computed) ---- *)
Definition ex_bank : bank := mkBank [(2, []); (10, [(0, 1000); (1, 500)]); (11, [(0, 1000)]); (12, [(0, 1)])] [].
Definition ex_hist : list hstep :=
  [ HTx 1 (MCreateDist 10 1 3 11 [(12, [(0, 100); (1, 50)]); (2, [(0, 7)]); (12, [(0, 5)])]);
    HTx 1 (MCreateClaim 12 3);
    HBlock 8;
    HTx 1 (MRunDist 10 1 3 5);      (* wrong runner: nothing happens *)
    HTx 1 (MRunDist 11 1 3 5) ].    (* the runner: 12 is paid 105 + 50 and loses its claim, the module account's record fails *)
Example C11_nonvacuous :
  let s := hrun (genesis ex_bank [2] 7) ex_hist in
  bal (ds_bank s) 12 0 = 105 /\ bal (ds_bank s) 12 1 = 50 /\ bal (ds_bank s) 2 0 = 7 /\
  ds_pending s = [] /\ ds_claims s = [] /\ length (ds_completed s) = 1%nat /\ length (ds_failed s) = 1%nat /\
  amt 0 (l_paid (lg s (1, 3, 12))) = 105 /\ amt 0 (l_owed (lg s (1, 3, 12))) = 105 /\ amt 0 (l_failed (lg s (1, 3, 2))) = 7.
Proof.
  cbv zeta. remember (hrun _ _) as s eqn:E. run_once E. subst s. repeat split; reflexivity.
Qed.
Example C11_nonvacuous_hyps : hist_ok (genesis ex_bank [2] 7) ex_hist /\ LInv (genesis ex_bank [2] 7).
Proof.
  split; [cbn; repeat split; discriminate|].
  apply genesis_linv; [left; reflexivity | intros d; vm_compute; destruct d; discriminate].
Qed.
